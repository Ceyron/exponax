From Coq Require Import String List Bool Arith.
From EXV Require Import Utils.BranchTable.

Lemma call_static_sound (tbl : list branch) :
  forallb call_static tbl = true -> forall b, In b tbl -> b_call b = true -> b_vd b = false.
Proof.
  intros H b Hb Hc. rewrite forallb_forall in H. specialize (H b Hb).
  unfold call_static in H. rewrite Hc in H. destruct (b_vd b); [discriminate | reflexivity].
Qed.

Lemma ctor_guarded_sound (tbl : list branch) :
  forallb ctor_guarded tbl = true ->
  forall b, In b tbl -> b_call b = false -> b_vd b = true -> b_guarded b = true.
Proof.
  intros H b Hb Hc Hv. rewrite forallb_forall in H. specialize (H b Hb).
  unfold ctor_guarded in H. rewrite Hc, Hv in H. exact H.
Qed.

Lemma covered_sound (tbl : list branch) (call : bool) (cs : list string) :
  forallb (covered tbl call) cs = true ->
  forall c, In c cs -> exists b, In b tbl /\ b_cls b = c /\ b_call b = call.
Proof.
  intros H c Hc. rewrite forallb_forall in H. specialize (H c Hc).
  unfold covered in H. apply existsb_exists in H. destruct H as [b [Hb E]].
  apply andb_true_iff in E. destruct E as [E1 E2].
  exists b. split; [exact Hb|]. split; [apply String.eqb_eq; exact E1 | apply Bool.eqb_prop; exact E2].
Qed.

Lemma triple_table_sound (tbl : list branch) :
  forallb call_static tbl = true ->
  forall c l v, In (c, l, v) (map triple_of (filter b_call tbl)) -> v = false.
Proof.
  intros H c l v Hin. apply in_map_iff in Hin. destruct Hin as [b [E Hb]].
  apply filter_In in Hb. destruct Hb as [Hb Hc].
  unfold triple_of in E. inversion E; subst. apply (call_static_sound tbl H b Hb Hc).
Qed.

(* Coverage read off the generated form: class [c] owns the tests [ids]; it is covered on a path as soon as one of its
   indices points at a test of that path.  Checking this per class walks [ids] once instead of searching the expanded table. *)
Definition test_call (tests : list (string * bool * bool * bool)) (i : nat) : bool := snd (fst (fst (nth i tests missing_test))).

Lemma covered_expand tests cts c ids i call :
  In (c, ids) cts -> In i ids -> test_call tests i = call ->
  exists b, In b (expand_branches tests cts) /\ b_cls b = c /\ b_call b = call.
Proof.
  intros Hc Hi <-. eexists. split.
  - apply in_flat_map. exists (c, ids). split; [exact Hc | apply in_map; exact Hi].
  - split; reflexivity.
Qed.

Definition class_covered (tests : list (string * bool * bool * bool)) (ct : string * list nat) : bool :=
  existsb (test_call tests) (snd ct) && existsb (fun i => negb (test_call tests i)) (snd ct)
  && forallb (fun i => Nat.ltb i (length tests)) (snd ct).

Lemma class_covered_sound tests cts : forallb (class_covered tests) cts = true ->
  forall c, In c (map fst cts) ->
  (exists b, In b (expand_branches tests cts) /\ b_cls b = c /\ b_call b = true) /\
  (exists b, In b (expand_branches tests cts) /\ b_cls b = c /\ b_call b = false) /\
  (exists ids, In (c, ids) cts /\ forall i, In i ids -> i < length tests).
Proof.
  intros H c Hc. apply in_map_iff in Hc. destruct Hc as [[c' ids] [<- Hin]]. rewrite forallb_forall in H.
  pose proof (H _ Hin) as Hk. apply andb_true_iff in Hk as [Hk H3]. apply andb_true_iff in Hk as [H1 H2].
  apply existsb_exists in H1 as [i [Hi Ei]]. apply existsb_exists in H2 as [j [Hj Ej]]. apply negb_true_iff in Ej.
  rewrite forallb_forall in H3.
  split; [exact (covered_expand _ _ _ _ _ _ Hin Hi Ei) | split; [exact (covered_expand _ _ _ _ _ _ Hin Hj Ej)|]].
  exists ids. split; [exact Hin|]. intros k Hk. apply Nat.ltb_lt, H3, Hk.
Qed.
