From Coq Require Import List Arith Lia.
From EXV Require Import Utils.Rollout Utils.RolloutProofs Utils.Combinators.
Import ListNotations.
Set Implicit Arguments.

Section Zip.
  Variables A B : Type.
  Lemma nth_error_combine (l : list A) (r : list B) j :
    nth_error (combine l r) j = match nth_error l j, nth_error r j with Some x, Some y => Some (x, y) | _, _ => None end.
  Proof.
    revert r j. induction l as [|x l IH]; intros r j; [destruct j; reflexivity|].
    destruct r as [|y r]; [destruct j; cbn; [|destruct (nth_error l j)]; reflexivity|].
    destruct j; cbn; [reflexivity | apply IH].
  Qed.
End Zip.

Section TransposeLemmas.
  Variable A : Type.

  Lemma zip_cons_combine (r : list A) cols : zip_cons r cols = map (fun p => fst p :: snd p) (combine r cols).
  Proof. revert cols. induction r as [|x r IH]; intros [|c cols]; cbn; [reflexivity..|]. rewrite IH. reflexivity. Qed.

  Lemma zip_cons_nth_error (r : list A) cols j :
    nth_error (zip_cons r cols) j =
    match nth_error r j, nth_error cols j with Some x, Some c => Some (x :: c) | _, _ => None end.
  Proof.
    rewrite zip_cons_combine, nth_error_map, nth_error_combine.
    destruct (nth_error r j), (nth_error cols j); reflexivity.
  Qed.

  Lemma zip_cons_length (r : list A) cols : length (zip_cons r cols) = Nat.min (length r) (length cols).
  Proof. rewrite zip_cons_combine, map_length. apply combine_length. Qed.

  Lemma zip_cons_map X (g : X -> A) (h : X -> list A) (xs : list X) :
    zip_cons (map g xs) (map h xs) = map (fun x => g x :: h x) xs.
  Proof. induction xs as [|x xs IH]; [reflexivity|]. cbn. rewrite IH. reflexivity. Qed.

  (* the transposition lemma behind every "axes exchanged" statement *)
  Lemma transpose_rows_of_map X K (g : K -> X -> A) (xs : list X) (ks : list K) :
    transpose (length xs) (map (fun k => map (g k) xs) ks) = map (fun x => map (fun k => g k x) ks) xs.
  Proof.
    induction ks as [|k ks IH]; cbn [map transpose].
    - induction xs as [|x xs IHx]; [reflexivity|]. cbn. rewrite IHx. reflexivity.
    - rewrite IH. apply zip_cons_map.
  Qed.

  Lemma transpose_length w (rows : list (list A)) :
    Forall (fun r => length r = w) rows -> length (transpose w rows) = w.
  Proof.
    induction 1 as [|r rows Hr _ IH]; cbn [transpose].
    - apply repeat_length.
    - rewrite zip_cons_length, IH, Hr. apply Nat.min_id.
  Qed.

  Lemma nth_error_nil_none X (j : nat) : nth_error (@nil X) j = None.
  Proof. destruct j; reflexivity. Qed.

  (* a row in front of columns of the same number: its entries come first in their columns, the old entries move down by one *)
  Lemma at2_zip_cons (r : list A) cols j t : length r = length cols ->
    at2 (zip_cons r cols) j t = match t with O => nth_error r j | S t' => at2 cols j t' end.
  Proof.
    revert cols j. induction r as [|x r IH]; intros [|c cols] j H; try discriminate H; [destruct j, t; reflexivity|].
    destruct j; [destruct t; reflexivity | injection H as H; exact (IH cols j H)].
  Qed.

  Lemma transpose_at2 w (rows : list (list A)) j t :
    Forall (fun r => length r = w) rows -> at2 (transpose w rows) j t = at2 rows t j.
  Proof.
    intros H. revert t. induction H as [|r rows Hr Hrows IH]; intros t; cbn [transpose].
    - unfold at2. rewrite (nth_error_nil_none (list A) t).
      destruct (nth_error (repeat [] w) j) as [c|] eqn:E; [|reflexivity].
      apply nth_error_In in E. apply List.repeat_spec in E. subst c. apply (nth_error_nil_none A).
    - rewrite at2_zip_cons by (rewrite (transpose_length Hrows); exact Hr). destruct t; [reflexivity | apply IH].
  Qed.
End TransposeLemmas.

Section VmapLaws.
  Variables A B : Type.

  Lemma vmap_nth (f : A -> B) us i : nth_error (vmap f us) i = option_map f (nth_error us i).
  Proof. unfold vmap. apply nth_error_map. Qed.

  Lemma vmap_length (f : A -> B) us : length (vmap f us) = length us.
  Proof. apply map_length. Qed.

  Lemma vmap_member_only (f : A -> B) us vs i :
    nth_error us i = nth_error vs i -> nth_error (vmap f us) i = nth_error (vmap f vs) i.
  Proof. intros H. rewrite !vmap_nth, H. reflexivity. Qed.

  Lemma vmap_upd (f : A -> B) i x us : vmap f (upd i x us) = upd i (f x) (vmap f us).
  Proof.
    unfold vmap. revert i. induction us as [|u us IH]; intros i; [destruct i; reflexivity|].
    destruct i; cbn; [reflexivity|]. rewrite IH. reflexivity.
  Qed.

  Lemma upd_nth_other (i j : nat) (x : A) us : i <> j -> nth_error (upd i x us) j = nth_error us j.
  Proof.
    revert i j. induction us as [|u us IH]; intros i j H; [destruct i; reflexivity|].
    destruct i, j; cbn; try reflexivity; [lia|]. apply IH. lia.
  Qed.

  Lemma upd_nth_same (i : nat) (x : A) us : i < length us -> nth_error (upd i x us) i = Some x.
  Proof.
    revert i. induction us as [|u us IH]; intros i H; [cbn in H; lia|].
    destruct i; cbn; [reflexivity|]. apply IH. cbn in H. lia.
  Qed.
End VmapLaws.

(* A batched stepper F acts memberwise when its k-th iterate is [map (g k)] over some list of members ys (the states, or
   the (parameter, state) pairs).  Its rollout is then the transpose of the members' own trajectories. *)
Section Memberwise.
  Variables A Y : Type.
  Variable F : list A -> list A.
  Variable us : list A.
  Variable ys : list Y.
  Variable g : nat -> Y -> A.
  Hypothesis iterF : forall k, iter k F us = map (g k) ys.

  Lemma memberwise_table n (b : bool) : rollout F n b us = map (fun k => map (g k) ys) ((if b then [0] else []) ++ seq 1 n).
  Proof.
    assert (E1 : rollout F n false us = map (fun k => map (g k) ys) (seq 1 n))
      by (rewrite rollout_unfold, <- seq_shift, map_map; apply map_ext; intros k; apply (iterF (S k))).
    destruct b; [|exact E1]. rewrite rollout_init, E1. cbn [app map]. f_equal. exact (iterF 0).
  Qed.

  Lemma memberwise_rollout n (b : bool) :
    transpose (length ys) (rollout F n b us)
    = map (fun y => (if b then [g 0 y] else []) ++ map (fun k => g (S k) y) (seq 0 n)) ys.
  Proof.
    rewrite memberwise_table, transpose_rows_of_map. apply map_ext. intros y. rewrite map_app, <- seq_shift, map_map. destruct b; reflexivity.
  Qed.

  Lemma memberwise_rows n (b : bool) : Forall (fun r => length r = length ys) (rollout F n b us).
  Proof.
    rewrite memberwise_table. apply Forall_forall. intros r Hr. apply in_map_iff in Hr. destruct Hr as [k [<- _]]. apply map_length.
  Qed.

  (* every entry of the rollout depends only on its own member *)
  Lemma memberwise_entry n t j : t < n -> at2 (rollout F n false us) t j = option_map (g (S t)) (nth_error ys j).
  Proof. intros Ht. unfold at2. rewrite rollout_nth by exact Ht. rewrite iterF. apply nth_error_map. Qed.
End Memberwise.

Section VmapRollout.
  Variable A : Type.

  Lemma iter_vmap (f : A -> A) k us : iter k (vmap f) us = vmap (iter k f) us.
  Proof.
    unfold vmap. induction k as [|k IH]; cbn [iter].
    - symmetry. apply map_id.
    - rewrite IH, map_map. reflexivity.
  Qed.

  Lemma rollout_vmap_commute (f : A -> A) n (b : bool) us :
    vmap (rollout f n b) us = transpose (length us) (rollout (vmap f) n b us).
  Proof.
    rewrite (memberwise_rollout (vmap f) us us (fun k => iter k f) (fun k => iter_vmap f k us)).
    apply map_ext. intros u. apply rollout_unfold.
  Qed.

  Lemma rollout_vmap_entry (f : A -> A) n (b : bool) us j t :
    at2 (vmap (rollout f n b) us) j t = at2 (rollout (vmap f) n b us) t j.
  Proof.
    rewrite rollout_vmap_commute. apply transpose_at2.
    apply (memberwise_rows (vmap f) us us (fun k => iter k f) (fun k => iter_vmap f k us)).
  Qed.

  Lemma rollout_vmap_member (f : A -> A) n us t j :
    t < n -> at2 (rollout (vmap f) n false us) t j = option_map (iter (S t) f) (nth_error us j).
  Proof. exact (memberwise_entry (vmap f) us us (fun k => iter k f) (fun k => iter_vmap f k us) j). Qed.

  (* repeat produces no time axis, so no transposition *)
  Lemma repeat_vmap_commute (f : A -> A) n us : vmap (repeat_fn f n) us = repeat_fn (vmap f) n us.
  Proof.
    rewrite repeat_spec, iter_vmap. unfold vmap. apply map_ext. intros u. apply repeat_spec.
  Qed.
End VmapRollout.

Section Family.
  Variables A P : Type.

  Lemma family_apply_spec (step : P -> A -> A) ps u : family_apply step ps u = map (fun p => step p u) ps.
  Proof. unfold family_apply. apply map_map. Qed.

  Lemma family_apply_nth (step : P -> A -> A) ps u i :
    nth_error (family_apply step ps u) i = option_map (fun p => step p u) (nth_error ps i).
  Proof. rewrite family_apply_spec. apply nth_error_map. Qed.

  Lemma vmap2_nth B (f : P -> A -> B) ps us i :
    nth_error (vmap2 f ps us) i =
    match nth_error ps i, nth_error us i with Some p, Some u => Some (f p u) | _, _ => None end.
  Proof.
    unfold vmap2. rewrite nth_error_map, nth_error_combine. destruct (nth_error ps i), (nth_error us i); reflexivity.
  Qed.

  Lemma combine_same_length (ps : list P) (us : list A) : length ps = length us -> length (combine ps us) = length us.
  Proof. intros H. rewrite combine_length, H. apply Nat.min_id. Qed.

  Lemma vmap2_length B (f : P -> A -> B) ps us : length ps = length us -> length (vmap2 f ps us) = length us.
  Proof. intros H. unfold vmap2. rewrite map_length. apply combine_same_length, H. Qed.

  Lemma vmap2_compose B (g : P -> A -> B) (h : P -> A -> A) ps us :
    vmap2 g ps (vmap2 h ps us) = vmap2 (fun p u => g p (h p u)) ps us.
  Proof.
    unfold vmap2. revert us. induction ps as [|p ps IH]; intros us; [reflexivity|].
    destruct us as [|u us]; [reflexivity|]. cbn. rewrite IH. reflexivity.
  Qed.

  Lemma vmap2_snd ps (us : list A) : length ps = length us -> vmap2 (fun (_ : P) u => u) ps us = us.
  Proof.
    unfold vmap2. revert us. induction ps as [|p ps IH]; intros us H; destruct us as [|u us]; try discriminate; [reflexivity|].
    cbn. rewrite IH by (cbn in H; lia). reflexivity.
  Qed.

  Lemma iter_vmap2 (step : P -> A -> A) k ps us :
    length ps = length us -> iter k (vmap2 step ps) us = vmap2 (fun p u => iter k (step p) u) ps us.
  Proof.
    intros H. induction k as [|k IH]; cbn [iter].
    - symmetry. apply vmap2_snd. exact H.
    - rewrite IH. apply vmap2_compose.
  Qed.

  (* the batch of steppers acts memberwise on the (parameter, state) pairs *)
  Lemma family_rollout_commute (step : P -> A -> A) n (b : bool) ps us :
    length ps = length us ->
    vmap2 (fun p u => rollout (step p) n b u) ps us = transpose (length us) (rollout (vmap2 step ps) n b us).
  Proof.
    intros H. rewrite <- (combine_same_length ps us H).
    rewrite (memberwise_rollout (vmap2 step ps) us (combine ps us) _ (fun k => iter_vmap2 step k ps us H)).
    apply map_ext. intros pu. apply rollout_unfold.
  Qed.

  Lemma family_rollout_rows (step : P -> A -> A) n (b : bool) ps us :
    length ps = length us -> Forall (fun r => length r = length us) (rollout (vmap2 step ps) n b us).
  Proof.
    intros H. rewrite <- (combine_same_length ps us H).
    exact (memberwise_rows (vmap2 step ps) us (combine ps us) _ (fun k => iter_vmap2 step k ps us H) n b).
  Qed.

  Lemma family_repeat_commute (step : P -> A -> A) n ps us :
    length ps = length us ->
    vmap2 (fun p u => repeat_fn (step p) n u) ps us = repeat_fn (vmap2 step ps) n us.
  Proof.
    intros H. rewrite repeat_spec, iter_vmap2 by exact H. unfold vmap2. apply map_ext. intros pu. apply repeat_spec.
  Qed.
End Family.
