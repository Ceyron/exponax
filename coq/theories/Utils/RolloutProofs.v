From Coq Require Import List Arith Lia.
From EXV Require Import Utils.Rollout.
Import ListNotations.
Set Implicit Arguments.

Section ScanLemmas.
  Variables A X : Type.

  (* every scan of the utilities steps the carry with f and emits a function e of the new carry (the carry itself, or nothing) *)
  Lemma scan_spec Y (f : A -> X -> A) (e : A -> Y) (u : A) (xs : list X) :
    scan (fun u x => let u' := f u x in (u', e u')) u xs
    = (fold_left f xs u, map (fun k => e (fold_left f (firstn (S k) xs) u)) (seq 0 (length xs))).
  Proof.
    revert u. induction xs as [|x r IH]; intros u; [reflexivity|].
    cbn [scan fold_left length]. rewrite IH. cbn [seq map firstn fold_left].
    do 2 apply f_equal. rewrite <- seq_shift, map_map. reflexivity.
  Qed.

  Lemma fold_left_repeat (f : A -> X -> A) (x : X) (n : nat) (u : A) :
    fold_left f (repeat x n) u = iter n (fun u => f u x) u.
  Proof. induction n as [|n IH]; [reflexivity|]. cbn [repeat iter]. rewrite repeat_cons, fold_left_app, IH. reflexivity. Qed.

  Lemma firstn_repeat (x : X) k n : k <= n -> firstn k (repeat x n) = repeat x k.
  Proof.
    revert n; induction k as [|k IH]; intros n H; [reflexivity|].
    destruct n; [lia|]. cbn. rewrite IH by lia. reflexivity.
  Qed.

  Lemma scan_repeat (f : A -> X -> A) (x : X) (n : nat) (u : A) :
    snd (scan (fun u x => let u' := f u x in (u', u')) u (repeat x n)) = map (fun k => iter (S k) (fun u => f u x) u) (seq 0 n).
  Proof.
    rewrite (scan_spec f (fun u => u)). cbn [snd]. rewrite repeat_length. apply map_ext_in. intros k Hk. apply in_seq in Hk.
    rewrite firstn_repeat by lia. apply fold_left_repeat.
  Qed.
End ScanLemmas.

Section RolloutSpec.
  Variable A : Type.

  Lemma rollout_unfold (f : A -> A) n (b : bool) u0 :
    rollout f n b u0 = (if b then [u0] else []) ++ map (fun k => iter (S k) f u0) (seq 0 n).
  Proof. unfold rollout. rewrite (scan_repeat (fun u (_ : unit) => f u)). destruct b; reflexivity. Qed.

  Theorem rollout_length f n (b : bool) (u0 : A) :
    length (rollout f n b u0) = if b then S n else n.
  Proof. rewrite rollout_unfold, app_length, map_length, seq_length. destruct b; reflexivity. Qed.

  Theorem rollout_nth f n (u0 : A) i :
    i < n -> nth_error (rollout f n false u0) i = Some (iter (S i) f u0).
  Proof.
    intros Hi. rewrite rollout_unfold. cbn [app].
    rewrite nth_error_map, nth_error_nth' with (d := 0) by (rewrite seq_length; exact Hi).
    rewrite seq_nth by exact Hi. reflexivity.
  Qed.

  Theorem rollout_init f n (u0 : A) : rollout f n true u0 = u0 :: rollout f n false u0.
  Proof. reflexivity. Qed.

  Theorem rollout_init_nth f n (u0 : A) i :
    i <= n -> nth_error (rollout f n true u0) i = Some (iter i f u0).
  Proof.
    intros Hi. rewrite rollout_init. destruct i as [|i]; [reflexivity|].
    cbn [nth_error]. apply rollout_nth. lia.
  Qed.

  Theorem rollout_zero f (u0 : A) : rollout f 0 false u0 = [] /\ rollout f 0 true u0 = [u0].
  Proof. split; reflexivity. Qed.

  Theorem repeat_spec f n (u0 : A) : repeat_fn f n u0 = iter n f u0.
  Proof.
    unfold repeat_fn. rewrite (scan_spec (fun u (_ : unit) => f u) (fun _ => tt)). apply (fold_left_repeat (fun u (_ : unit) => f u)).
  Qed.

  Theorem repeat_is_last_of_rollout f n (u0 : A) :
    repeat_fn f n u0 = last (rollout f n true u0) u0.
  Proof.
    rewrite repeat_spec, rollout_unfold. destruct n as [|n]; [reflexivity|].
    rewrite seq_S, map_app, app_assoc. cbn [map]. rewrite last_last. reflexivity.
  Qed.
End RolloutSpec.

Section RolloutAuxSpec.
  Variables A X : Type.

  Theorem rollout_aux_seq (f : A -> X -> A) n (b : bool) (u0 : A) (xs : list X) :
    length xs = n ->
    rollout_aux f n b false u0 (AuxSeq xs)
    = Some ((if b then [u0] else []) ++ map (fun k => fold_left f (firstn (S k) xs) u0) (seq 0 n)).
  Proof.
    intros Hl. unfold rollout_aux, aux_seq. rewrite Hl, Nat.eqb_refl.
    rewrite (scan_spec f (fun u => u)). cbn [snd]. rewrite Hl. destruct b; reflexivity.
  Qed.

  Theorem rollout_aux_seq_rejects (f : A -> X -> A) n (b : bool) (u0 : A) (xs : list X) :
    length xs <> n -> rollout_aux f n b false u0 (AuxSeq xs) = None.
  Proof.
    intros Hl. unfold rollout_aux, aux_seq. apply Nat.eqb_neq in Hl. rewrite Hl. reflexivity.
  Qed.

  Theorem rollout_aux_const (f : A -> X -> A) n (b : bool) (u0 : A) (x : X) :
    rollout_aux f n b true u0 (AuxConst x)
    = Some (rollout (fun u => f u x) n b u0).
  Proof. unfold rollout_aux, aux_seq. rewrite scan_repeat, rollout_unfold. destruct b; reflexivity. Qed.

  Theorem repeat_aux_seq (f : A -> X -> A) n (u0 : A) (xs : list X) :
    length xs = n -> repeat_aux f n false u0 (AuxSeq xs) = Some (fold_left f xs u0).
  Proof.
    intros Hl. unfold repeat_aux, aux_seq. rewrite Hl, Nat.eqb_refl. rewrite (scan_spec f (fun _ => tt)). reflexivity.
  Qed.

  Theorem repeat_aux_const (f : A -> X -> A) n (u0 : A) (x : X) :
    repeat_aux f n true u0 (AuxConst x) = Some (iter n (fun u => f u x) u0).
  Proof. unfold repeat_aux, aux_seq. rewrite (scan_spec f (fun _ => tt)). cbn [fst]. apply f_equal, fold_left_repeat. Qed.
End RolloutAuxSpec.
Section Windows.
  Variable A : Type.

  Lemma nth_error_firstn_lt (l : list A) m j : j < m -> nth_error (firstn m l) j = nth_error l j.
  Proof.
    revert m j. induction l as [|a l IH]; intros m j H.
    - rewrite firstn_nil. reflexivity.
    - destruct m; [lia|]. destruct j; [reflexivity|]. cbn. apply IH. lia.
  Qed.

  Lemma nth_error_skipn_add (l : list A) i j : nth_error (skipn i l) j = nth_error l (i + j).
  Proof.
    revert l. induction i as [|i IH]; intros l; [reflexivity|].
    destruct l as [|a l]; [destruct j; reflexivity|]. cbn. apply IH.
  Qed.

  Theorem stack_sub_spec (trj : list A) m :
    m <= length trj ->
    stack_sub trj m = Some (map (fun i => firstn m (skipn i trj)) (seq 0 (length trj - m + 1))).
  Proof.
    intros H. unfold stack_sub. destruct (Nat.ltb_spec (length trj) m) as [H'|_]; [lia|].
    apply f_equal, map_ext_in. intros i Hi. apply in_seq in Hi. unfold dynamic_slice.
    rewrite Nat.min_l by lia. reflexivity.
  Qed.

  Theorem stack_sub_rejects (trj : list A) m : length trj < m -> stack_sub trj m = None.
  Proof. intros H. unfold stack_sub. destruct (Nat.ltb_spec (length trj) m); [reflexivity | lia]. Qed.

  Theorem stack_sub_window (trj : list A) m ws i j :
    stack_sub trj m = Some ws -> i < length trj - m + 1 -> j < m ->
    exists w, nth_error ws i = Some w /\ length w = m /\ nth_error w j = nth_error trj (i + j).
  Proof.
    intros Hs Hi Hj. destruct (Nat.ltb_spec (length trj) m) as [H'|H'].
    - rewrite stack_sub_rejects in Hs by exact H'. discriminate.
    - rewrite stack_sub_spec in Hs by exact H'. injection Hs as <-.
      exists (firstn m (skipn i trj)). split; [|split].
      + rewrite nth_error_map, nth_error_nth' with (d := 0) by (rewrite seq_length; exact Hi).
        rewrite seq_nth by exact Hi. reflexivity.
      + rewrite firstn_length, skipn_length. lia.
      + rewrite nth_error_firstn_lt by exact Hj. apply nth_error_skipn_add.
  Qed.

  Theorem stack_sub_count (trj : list A) m ws :
    stack_sub trj m = Some ws -> length ws = length trj - m + 1.
  Proof.
    intros Hs. destruct (Nat.ltb_spec (length trj) m) as [H'|H'].
    - rewrite stack_sub_rejects in Hs by exact H'. discriminate.
    - rewrite stack_sub_spec in Hs by exact H'. injection Hs as <-. rewrite map_length, seq_length. reflexivity.
  Qed.
End Windows.

Section WrapperSpec.
  Variables S Sh : Type.
  Variable fwd : S -> Sh. Variable bwd : Sh -> S. Variable sf : Sh -> Sh.
  (* [Good] = the set of spectra on which rfftn . irfftn is the identity (Hermitian spectra of
     Nyquist-compatible states); it must be closed under the inner Fourier step. *)
  Variable Good : Sh -> Prop.
  Hypothesis fwd_good : forall u, Good (fwd u).
  Hypothesis sf_good : forall y, Good y -> Good (sf y).
  Hypothesis round_trip : forall y, Good y -> fwd (bwd y) = y.

  Lemma iter_good n y : Good y -> Good (iter n sf y).
  Proof. intros H; induction n; cbn [iter]; auto. Qed.

  Theorem repeated_stepper_spec n u :
    repeated_step fwd bwd sf n u = iter n (base_step fwd bwd sf) u \/ n = 0.
  Proof.
    destruct n as [|n]; [right; reflexivity|left].
    unfold repeated_step. rewrite repeat_spec.
    induction n as [|n IH]; [reflexivity|].
    cbn [iter] in *. unfold base_step at 1. rewrite <- IH.
    rewrite round_trip; [reflexivity|]. apply sf_good. apply iter_good. apply fwd_good.
  Qed.

  Theorem repeated_stepper_zero u : repeated_step fwd bwd sf 0 u = bwd (fwd u).
  Proof. unfold repeated_step. rewrite repeat_spec. reflexivity. Qed.
End WrapperSpec.
