(* C07 at the algebraic level: the model steppers and terms evaluated on dual numbers (Base/Dual.v) give their derivatives.
   What is linear in the state with constant coefficients is its own Jacobian, by the componentwise rules [dlin] of
   Base/DualProofs.v; the pseudo-spectral products are multilinear, which gives the product rule and exact central differences;
   the ETD tableaux are differentiated once, as runs of stage programs (ETDRK/Stages.v), given the derivative of the nonlinear term. *)
From Coq Require Import ZArith Field List.
From EXV Require Import Base.Scalar Base.FieldLemmas Base.Dual Base.DualProofs AD.Deriv Utils.Rollout Spectral.Symbols Steppers.Linear
  Nonlin.Conv Nonlin.ConvProofs Nonlin.Terms ETDRK.Phi ETDRK.Stages.
Import ListNotations.
Local Open Scope fld_scope.

Section PhiConst.
  Variable F : FieldT.
  Notation DF := (DualOps F).
  Lemma phi1_const (a b : DF) x e : a = dconst x -> b = dconst e -> phi1 a b = dconst (phi1 x e).
  Proof. intros -> ->. unfold phi1, phi0. auto with dlin. Qed.
  Lemma phi2_const (a b : DF) x e : a = dconst x -> b = dconst e -> phi2 a b = dconst (phi2 x e).
  Proof. intros -> ->. unfold phi2. auto using phi1_const with dlin. Qed.
  Lemma phi3_const (a b : DF) x e : a = dconst x -> b = dconst e -> phi3 a b = dconst (phi3 x e).
  Proof. intros -> ->. unfold phi3. auto 12 using phi2_const with dlin. Qed.
  Lemma half_const (a : DF) x : a = dconst x -> Phi.half a = dconst (Phi.half x).
  Proof. intros ->. unfold Phi.half. auto with dlin. Qed.
End PhiConst.
#[local] Hint Resolve phi1_const phi2_const phi3_const half_const : dlin.

Section Algebra.
  Variable F : FieldT.
  Add Field Ffa : (fth F).
  Variable I : Type.
  Notation St := (I -> F).
  Notation DF := (DualOps F).

  Lemma diag_linear (E : St) : linear1 (diag E).
  Proof. intros u h v k. unfold diag, pert. ring. Qed.

  (* central differences of a map that is a cubic polynomial along the line u + t v: the odd part survives *)
  Lemma cdiff_cubic (f : St -> St) u v k (a b c d : F) :
    (forall t, f (pert u t v) k = a + t * b + t * t * c + t * t * t * d) ->
    forall h, h <> 0 -> cdiff f u h v k = b + h * h * d.
  Proof.
    intros Hf h Hh. unfold cdiff. rewrite !Hf. unfold two. field.
    split; [exact Hh | exact (two_neq0 F)].
  Qed.

  Lemma linear_fd_exact (L : St -> St) : linear1 L -> forall u h v k, h <> 0 -> cdiff L u h v k = L v k.
  Proof.
    intros HL u h v k Hh. rewrite (cdiff_cubic L u v k (L u k) (L v k) 0 0); [ring | intros t; rewrite (HL u t v k); ring | exact Hh].
  Qed.

  Lemma diag_dual (E u v : St) k :
    diag (K := DF) (dconstf E) (lift u v) k = mkdual (diag E u k) (diag E v k).
  Proof. unfold diag. auto with dlin. Qed.
  (* step (u + eps v) = step u + eps step v for every mode-wise multiplier: the Jacobian of a linear stepper is the stepper *)
  Definition dual_linear := diag_dual.

  Section LinearStep.
    Variable cexp : F -> F.
    Variable lam : St.
    Notation step dt := (linear_step F cexp I dt lam).
    Lemma linear_step_linear dt : linear1 (step dt).
    Proof. intros u h v k. unfold linear_step, pert. ring. Qed.

    Lemma linear_step_dual dt (u v : St) k :
      linear_step DF (dlift cexp cexp) I (dconst dt) (dconstf lam) (lift u v) k
      = mkdual (step dt u k) (step dt v k).
    Proof. unfold linear_step, exp_term. dual_ring. Qed.

    (* derivative with respect to dt (direction 1) and to the symbol (direction dlam): exp'(x) = exp(x) *)
    Lemma linear_step_dual_dt dt (u : St) k :
      linear_step DF (dlift cexp cexp) I (dvar dt) (dconstf lam) (dconstf u) k
      = mkdual (step dt u k) (lam k * step dt u k).
    Proof. unfold linear_step, exp_term. dual_ring. Qed.
    Lemma linear_step_dual_symbol dt (dlam u : St) k :
      linear_step DF (dlift cexp cexp) I (dconst dt) (lift lam dlam) (dconstf u) k
      = mkdual (step dt u k) (dt * dlam k * step dt u k).
    Proof. unfold linear_step, exp_term. dual_ring. Qed.

    Lemma linear_step_ext (K : Ops) (ce : K -> K) (d : K) (l : I -> K) : ext_fun I (linear_step K ce I d l).
    Proof. intros p q H k. unfold linear_step. rewrite H. reflexivity. Qed.

    (* n steps (repeat / last entry of a rollout): the Jacobian is the n-step map *)
    Lemma iter_linear_step_dual dt n (u v : St) k :
      iter n (linear_step DF (dlift cexp cexp) I (dconst dt) (dconstf lam)) (lift u v) k
      = mkdual (iter n (step dt) u k) (iter n (step dt) v k).
    Proof.
      rewrite <- (Diter_linear F I n (step dt) (step dt) u v).
      apply dual_iter; [exact (linear_step_dual dt) | apply linear_step_ext].
    Qed.
  End LinearStep.

  Section Multilinear.
    Variable B : St -> St -> St.
    Hypothesis HB : bilinear B.
    Definition quad (u : St) : St := B u u.
    Definition Dquad (u v : St) : St := fun k => B u v k + B v u k.

    Lemma quad_expand u h v k : quad (pert u h v) k = quad u k + h * Dquad u v k + h * h * quad v k.
    Proof. destruct HB as [H1 H2]. unfold quad, Dquad. rewrite H1, !H2. ring. Qed.

    Lemma quad_fd_exact u h v k : h <> 0 -> cdiff quad u h v k = Dquad u v k.
    Proof.
      intros Hh. rewrite (cdiff_cubic quad u v k (quad u k) (Dquad u v k) (quad v k) 0); [ring | intros t; rewrite quad_expand; ring | exact Hh].
    Qed.

    Variable T : St -> St -> St -> St.
    Hypothesis HT : trilinear T.
    Definition cub (u : St) : St := T u u u.
    Definition Dcub (u v : St) : St := fun k => T v u u k + T u v u k + T u u v k.

    Lemma cub_expand u h v k :
      cub (pert u h v) k = cub u k + h * Dcub u v k + h * h * (T u v v k + T v u v k + T v v u k) + h * h * h * cub v k.
    Proof. destruct HT as (H1 & H2 & H3). unfold cub, Dcub. rewrite !H1, !H2, !H3. ring. Qed.

    Lemma cub_fd_remainder u h v k : h <> 0 -> cdiff cub u h v k = Dcub u v k + h * h * cub v k.
    Proof. exact (cdiff_cubic cub u v k _ _ _ _ (fun t => cub_expand u t v k) h). Qed.
  End Multilinear.

  Lemma diag_self_adjoint (l : list I) (E v w : St) : pairing l (diag E v) w = pairing l v (diag E w).
  Proof. unfold pairing, diag. apply fsum_map_ext. intros k _. ring. Qed.

  Lemma adjoint_compose (l : list I) (A A' C C' : St -> St) :
    (forall v w, pairing l (A v) w = pairing l v (A' w)) -> (forall v w, pairing l (C v) w = pairing l v (C' w)) ->
    forall v w, pairing l (A (C v)) w = pairing l v (C' (A' w)).
  Proof. intros HA HC v w. rewrite HA, HC. reflexivity. Qed.

  Lemma iter_adjoint (l : list I) (A A' : St -> St) : (forall v w, pairing l (A v) w = pairing l v (A' w)) ->
    forall n v w, pairing l (iter n A v) w = pairing l v (iter n A' w).
  Proof.
    intros H n. induction n as [|n IH]; intros v w; cbn [iter]; [reflexivity|].
    rewrite H, IH. f_equal. clear. induction n as [|n IH]; cbn [iter]; [reflexivity | rewrite IH; reflexivity].
  Qed.
End Algebra.

Section Products.
  Variable F : FieldT.
  Add Ring Frp : (fring F).
  Notation DF := (DualOps F).
  Variables (D : nat) (N Kc : Z).
  Notation fld := (field F).

  Lemma msk_pert (U V : fld) h x : msk F Kc (pert U h V) x = msk F Kc U x + h * msk F Kc V x.
  Proof. unfold msk, pert. destruct (in_band Kc x); ring. Qed.

  Lemma cconv2_bilinear : bilinear (cconv2 F D N Kc).
  Proof.
    split; intros; apply fsum_map_lin; intros m _; rewrite msk_pert; ring.
  Qed.

  Lemma msk_scal_lin (c h : F) (f g g' : fld) k : f k = g k + h * g' k ->
    msk F Kc (fun x => c * f x) k = msk F Kc (fun x => c * g x) k + h * msk F Kc (fun x => c * g' x) k.
  Proof. intros E. unfold msk. destruct (in_band Kc k); [rewrite E|]; ring. Qed.

  Lemma prod2_bilinear : bilinear (prod2 F D N Kc).
  Proof. destruct cconv2_bilinear as [H1 H2]. split; intros; apply msk_scal_lin; [apply H1 | apply H2]. Qed.

  Lemma cconv3_trilinear : trilinear (cconv3 F D N Kc).
  Proof.
    repeat split; intros; apply fsum_map_lin; intros m1 _; apply fsum_map_lin; intros m2 _; rewrite msk_pert; ring.
  Qed.

  Lemma prod3_trilinear : trilinear (prod3 F D N Kc).
  Proof.
    destruct cconv3_trilinear as (H1 & H2 & H3). repeat split; intros; apply msk_scal_lin; [apply H1 | apply H2 | apply H3].
  Qed.

  Lemma msk_lift (U V : fld) x : msk DF Kc (lift U V) x = mkdual (msk F Kc U x) (msk F Kc V x).
  Proof. unfold msk, lift. destruct (in_band Kc x); reflexivity. Qed.

  Lemma nfac_dual : nfac DF D N = dconst (nfac F D N).
  Proof. unfold nfac. rewrite dual_fz, dual_fpow_const. apply (dconst_div F 1). Qed.

  Lemma cconv2_dual (U V U' V' : fld) k :
    cconv2 DF D N Kc (lift U V) (lift U' V') k
    = mkdual (cconv2 F D N Kc U U' k) (cconv2 F D N Kc V U' k + cconv2 F D N Kc U V' k).
  Proof.
    unfold cconv2. rewrite dual_fsum_map. apply dual_ext; cbn [val eps].
    - apply fsum_map_ext. intros m _. rewrite !msk_lift. reflexivity.
    - rewrite <- fsum_map_add. apply fsum_map_ext. intros m _. rewrite !msk_lift. reflexivity.
  Qed.

  Lemma prod2_dual (U V U' V' : fld) k :
    prod2 DF D N Kc (lift U V) (lift U' V') k
    = mkdual (prod2 F D N Kc U U' k) (prod2 F D N Kc V U' k + prod2 F D N Kc U V' k).
  Proof.
    unfold prod2, msk. destruct (in_band Kc k).
    - rewrite nfac_dual, cconv2_dual. dual_ring.
    - dual_ring.
  Qed.

  Variables (ii s : F).
  Lemma dc_dual c k : dc DF (dconst ii) (dconst s) c k = dconst (dc F ii s c k).
  Proof. unfold dc. auto with dlin. Qed.

  Lemma fsumf_dc_dual (l : list nat) k :
    fsumf DF (map (dc DF (dconst ii) (dconst s)) l) k = dconst (fsumf F (map (dc F ii s) l) k).
  Proof.
    unfold fsumf. induction l as [|c l IH]; cbn [map fsum]; [reflexivity|].
    auto using dc_dual with dlin.
  Qed.

  Lemma half_dual : Terms.half DF = dconst (Terms.half F).
  Proof. unfold Terms.half. rewrite dual_fz. apply (dconst_div F 1). Qed.

  (* the eps-part of the single-channel conservative convection term -b/2 (sum_c d_c)(u^2) is the same term with the product
     replaced by its symmetrised derivative 2 u v; the C07 statements write that as conv_sc_cons applied to A, _ |-> Dquad A V in
     place of a product, and so does this lemma *)
  Lemma conv_sc_cons_dual (Dx : nat) (b : F) (U V : fld) k :
    conv_sc_cons DF (prod2 DF D N Kc) (dconst ii) (dconst s) Dx (dconst b) (lift U V) k
    = mkdual (conv_sc_cons F (prod2 F D N Kc) ii s Dx b U k)
             (conv_sc_cons F (fun A _ => Dquad F idx (prod2 F D N Kc) A V) ii s Dx b U k).
  Proof.
    unfold conv_sc_cons, fscal, fmulp, axes, Dquad. rewrite fsumf_dc_dual, half_dual, prod2_dual.
    dual_ring.
  Qed.

  Lemma conv_sc_cons_dual_scale (Dx : nat) (b db : F) (U : fld) k :
    conv_sc_cons DF (prod2 DF D N Kc) (dconst ii) (dconst s) Dx (mkdual b db) (dconstf U) k
    = mkdual (conv_sc_cons F (prod2 F D N Kc) ii s Dx b U k) (conv_sc_cons F (prod2 F D N Kc) ii s Dx db U k).
  Proof.
    unfold conv_sc_cons, fscal, fmulp, axes. rewrite fsumf_dc_dual, half_dual.
    (* a constant state is the lift with derivative 0 (by unfolding); both product-rule terms then have a zero factor *)
    change (dconstf U) with (lift U (fun _ : idx => (0 : F))). rewrite prod2_dual.
    rewrite (prod2_zero_l F D N Kc (fun _ => 0) U k), (prod2_zero_r F D N Kc U (fun _ => 0) k) by reflexivity. dual_ring.
  Qed.
End Products.

Section Wave.
  Variable F : FieldT.
  Notation DF := (DualOps F).
  Variables ii s c rho dt Ep Em : F.
  Hypothesis ii_nz : ii <> 0.
  Hypothesis c_nz : c <> 0.

  Lemma wave_mode_dual (is_dc : bool) (h dh v dv : F) :
    wave_mode DF (dconst ii) (dconst s) (dconst c) (dconst rho) (dconst dt) (dconst Ep) (dconst Em) is_dc (mkdual h dh) (mkdual v dv)
    = (mkdual (fst (wave_mode F ii s c rho dt Ep Em is_dc h v)) (fst (wave_mode F ii s c rho dt Ep Em is_dc dh dv)),
       mkdual (snd (wave_mode F ii s c rho dt Ep Em is_dc h v)) (snd (wave_mode F ii s c rho dt Ep Em is_dc dh dv))).
  Proof.
    unfold wave_mode.
    change (@oeqb DF (dconst rho) 0) with (oeqb rho 0).
    set (g := if oeqb rho 0 then 1 else rho).
    (* the guarded wavenumber is a nonzero constant, so the one division is by a nonzero constant *)
    assert (Hg : ii * c * g <> 0).
    { repeat apply fmul_neq0; try assumption.
      unfold g. destruct (oeqb rho 0) eqn:Er; [apply f_1_neq_0 | apply (feqb_false F); exact Er]. }
    assert (Eg : (if oeqb rho 0 then (1 : DF) else dconst rho) = dconst g) by (unfold g; destruct (oeqb rho 0); reflexivity).
    rewrite Eg. cbn [fst snd]. apply f_equal2; [destruct is_dc|]; auto 12 with dlin nocore.
  Qed.
End Wave.

Section Symbols.
  Variable F : FieldT.
  Add Ring Frs : (fring F).
  Notation DF := (DualOps F).

  Lemma map_dconst_pow_sum (aj daj : F) (j : nat) (d : list F) :
    @fsum DF (map (fun x => (mkdual aj daj : DF) * fpow x j) (map dconst d))
    = mkdual (fsum (map (fun x => aj * fpow x j) d)) (fsum (map (fun x => daj * fpow x j) d)).
  Proof.
    induction d as [|x d IH]; cbn [map fsum]; [reflexivity|].
    rewrite IH, dual_fpow_const. dual_ring.
  Qed.

  Lemma laplace_sym_const n (d : list F) : laplace_sym DF n (map dconst d) = dconst (laplace_sym F n d).
  Proof.
    unfold laplace_sym. destruct n as [|n]; [reflexivity|].
    induction d as [|x d IH]; cbn [map fsum]; [reflexivity|].
    rewrite IH, dual_fpow_const. dual_ring.
  Qed.

  Lemma poly_sym_dual_from (s0 : nat) (a da : list F) (d : list F) : length a = length da ->
    @fsum DF (imap_from s0 (fun j (aj : DF) => fsum (map (fun x => aj * fpow x j) (map dconst d))) (map2 mkdual a da))
    = mkdual (fsum (imap_from s0 (fun j aj => fsum (map (fun x => aj * fpow x j) d)) a))
             (fsum (imap_from s0 (fun j aj => fsum (map (fun x => aj * fpow x j) d)) da)).
  Proof.
    revert s0 da. induction a as [|aj a IH]; intros s0 [|daj da] H; cbn [length] in H; try discriminate.
    - reflexivity.
    - cbn [map2 imap_from fsum]. rewrite IH by (injection H; auto). rewrite map_dconst_pow_sum.
      dual_ring.
  Qed.

  Lemma poly_sym_dual (a da d : list F) : length a = length da ->
    poly_sym DF (map2 mkdual a da) (map dconst d) = mkdual (poly_sym F a d) (poly_sym F da d).
  Proof. intros H. unfold poly_sym, imap. apply poly_sym_dual_from. exact H. Qed.

  Lemma sym_burgers_dual nu dnu (d : list F) :
    sym_burgers DF (mkdual nu dnu) (map dconst d) = mkdual (sym_burgers F nu d) (dnu * laplace_sym F 2 d).
  Proof. unfold sym_burgers. rewrite laplace_sym_const. dual_ring. Qed.

  Lemma sym_ks_dual s2 ds2 s4 ds4 (d : list F) :
    sym_ks DF (mkdual s2 ds2) (mkdual s4 ds4) (map dconst d)
    = mkdual (sym_ks F s2 s4 d) (- ds2 * laplace_sym F 2 d - ds4 * laplace_sym F 4 d).
  Proof. unfold sym_ks. rewrite !laplace_sym_const. dual_ring. Qed.

  (* a symbol that is NOT linear in its coefficients: Swift-Hohenberg r - (kc + Lap)^2;  d/dkc = -2 (kc + Lap) *)
  Lemma sym_swift_hohenberg_dual r dr kc dkc (d : list F) :
    sym_swift_hohenberg DF (mkdual r dr) (mkdual kc dkc) (map dconst d)
    = mkdual (sym_swift_hohenberg F r kc d) (dr - fz 2 * (kc + laplace_sym F 2 d) * dkc).
  Proof.
    unfold sym_swift_hohenberg. rewrite laplace_sym_const. dual_ring.
  Qed.
End Symbols.

(* extensionality of the convection term and of the ETD1 step over any Ops: needed to push dual states through stages and iterations *)
Section Ext.
  Variable K : Ops.
  Lemma conv_sc_cons_ext (D : nat) (N Kc : Z) (ii s b : K) (Dx : nat) : ext_fun idx (conv_sc_cons K (prod2 K D N Kc) ii s Dx b).
  Proof. intros p q H k. unfold conv_sc_cons, fscal, fmulp. rewrite (prod2_ext K D N Kc p q p q k H H). reflexivity. Qed.
  Lemma etd1_ext I (h : K) (z E : I -> K) N : ext_fun I N -> ext_fun I (etd1 h z E N).
  Proof. intros EN p q H k. unfold etd1. rewrite (H k), (EN p q H k). reflexivity. Qed.
End Ext.

Section StageDefs.
  (* The stage states of ETD3RK / ETD4RK as functions of the state.  Detd3rk / Detd4rk below take DN at these states, so they
     need them by name; a row of ETDRK/Stages.v gives a stage mode by mode from the values of N and does not name the state. *)
  Variable K : Ops.
  Variable I : Type.
  Variables (h : K) (z E Eh : I -> K).
  Variable N : (I -> K) -> (I -> K).
  Definition stA (u : I -> K) : I -> K := fun k => Eh k * u k + h * (phi1 (Phi.half (z k)) (Eh k) / fz 2 * N u k).
  Definition st3B (u a : I -> K) : I -> K :=
    fun k => E k * u k + h * (- phi1 (z k) (E k) * N u k + fz 2 * phi1 (z k) (E k) * N a k).
  Definition st4B (u a : I -> K) : I -> K := fun k => Eh k * u k + h * (phi1 (Phi.half (z k)) (Eh k) / fz 2 * N a k).
  Definition st4C (u a b : I -> K) : I -> K :=
    fun k => Eh k * a k + h * (phi1 (Phi.half (z k)) (Eh k) / fz 2 * (fz 2 * N b k - N u k)).
End StageDefs.

Section ETD.
  Variable F : FieldT.
  Variable I : Type.
  Notation St := (I -> F).
  Notation DF := (DualOps F).
  Variables (h : F) (z E Eh : St).
  Variable N : St -> St.
  Variable ND : (I -> DF) -> (I -> DF).
  Variable DN : St -> St -> St.
  Hypothesis HN : dual_deriv F I ND N DN.          (* the nonlinear term evaluated on dual numbers: value and derivative *)
  Hypothesis EN : ext_fun I ND.

  (* A row with constant coefficients, evaluated on dual numbers, gives its value and, as derivative, itself at the derivatives
     of its arguments.  For the rows of the tableaux [auto with dlin] shows it, following their syntax. *)
  Definition row_dual (rD : row DF I) (r : row F I) : Prop :=
    forall k x dx (nD : nat -> DF) n dn, (forall j, nD j = mkdual (n j) (dn j)) ->
      rD k (mkdual x dx) nD = mkdual (r k x n) (r k dx dn).

  (* the derivative of a run (ETDRK/Stages.v): every row once more at the derivatives, with DN where the run has N *)
  Fixpoint Drun_from (rs : list (row F I)) (out : row F I) (u v : St) (env denv : nat -> St) (i : nat) : St :=
    match rs with
    | [] => stage out v denv
    | r :: rs' => Drun_from rs' out u v (upd env i (N (stage r u env))) (upd denv i (DN (stage r u env) (stage r v denv))) (S i)
    end.
  Definition Drun (p : prog F I) (u v : St) : St := Drun_from (fst p) (snd p) u v (fun _ => N u) (fun _ => DN u v) 1.

  Lemma run_from_dual u v rsD rs outD out : Forall2 row_dual rsD rs -> row_dual outD out ->
    forall envD env denv i, (forall j, tangent F I (envD j) (env j) (denv j)) ->
    tangent F I (run_from ND rsD outD (lift u v) envD i) (run_from N rs out u env i) (Drun_from rs out u v env denv i).
  Proof.
    intros H Ho. induction H as [|rD r rsD rs Hr _ IH]; intros envD env denv i He; cbn [run_from Drun_from].
    - intros k. apply Ho. intros j. apply He.
    - apply IH. intros j. unfold upd. destruct (Nat.eqb j i); [|apply He].
      apply (dual_deriv_at F I ND N DN HN EN). intros k. apply Hr. intros j'. apply He.
  Qed.

  (* chain rule through the stages, for every program at once *)
  Theorem run_dual pD p : Forall2 row_dual (fst pD) (fst p) -> row_dual (snd pD) (snd p) ->
    dual_deriv F I (run ND pD) (run N p) (Drun p).
  Proof. intros H Ho u v. apply (run_from_dual u v _ _ _ _ H Ho). intros _. exact (HN u v). Qed.

  Notation hD := (dconst h : DF).
  Notation zD := (dconstf z). Notation ED := (dconstf E). Notation EhD := (dconstf Eh).

  (* The tableaux of ETDRK/Phi.v are the programs tab1 .. tab4, and the closed forms Detd* are their Drun, both by unfolding. *)
  Definition Detd1 (u v : St) : St := fun k => E k * v k + h * (phi1 (z k) (E k) * DN u v k).

  Lemma etd1_dual : dual_deriv F I (etd1 hD zD ED ND) (etd1 h z E N) Detd1.
  Proof.
    apply (run_dual (tab1 DF I ED hD zD) (tab1 F I E h z)); cbn [tab1 fst snd]; [constructor|].
    intros k x dx nD n dn Hn. auto 12 with dlin nocore.
  Qed.

  Definition Detd2rk (u v : St) : St :=
    let a := etd1 h z E N u in
    let Da := Detd1 u v in
    fun k => E k * v k + h * ((phi1 (z k) (E k) - phi2 (z k) (E k)) * DN u v k + phi2 (z k) (E k) * DN a Da k).

  Lemma etd2rk_dual : dual_deriv F I (etd2rk hD zD ED ND) (etd2rk h z E N) Detd2rk.
  Proof.
    apply (run_dual (tab2 DF I ED hD zD) (tab2 F I E h z)); cbn [tab2 fst snd]; [repeat constructor|];
      intros k x dx nD n dn Hn; auto 12 with dlin nocore.
  Qed.

  Definition DstA (u v : St) : St := fun k => Eh k * v k + h * (phi1 (Phi.half (z k)) (Eh k) / fz 2 * DN u v k).
  Definition Dst3B (u a v da : St) : St :=
    fun k => E k * v k + h * (- phi1 (z k) (E k) * DN u v k + fz 2 * phi1 (z k) (E k) * DN a da k).
  Definition Dst4B (u a v da : St) : St := fun k => Eh k * v k + h * (phi1 (Phi.half (z k)) (Eh k) / fz 2 * DN a da k).
  Definition Dst4C (u a b v da db : St) : St :=
    fun k => Eh k * da k + h * (phi1 (Phi.half (z k)) (Eh k) / fz 2 * (fz 2 * DN b db k - DN u v k)).

  Definition Detd3rk (u v : St) : St :=
    let a := stA F I h z Eh N u in let da := DstA u v in
    let b := st3B F I h z E N u a in let db := Dst3B u a v da in
    fun k => E k * v k + h * ((phi1 (z k) (E k) - fz 3 * phi2 (z k) (E k) + fz 4 * phi3 (z k) (E k)) * DN u v k
                              + (fz 4 * phi2 (z k) (E k) - fz 8 * phi3 (z k) (E k)) * DN a da k
                              + (- phi2 (z k) (E k) + fz 4 * phi3 (z k) (E k)) * DN b db k).

  Lemma etd3rk_dual : dual_deriv F I (etd3rk (K := DF) hD zD ED EhD ND) (etd3rk h z E Eh N) Detd3rk.
  Proof.
    apply (run_dual (tab3 DF I ED EhD hD zD) (tab3 F I E Eh h z)); cbn [tab3 fst snd]; [repeat constructor|];
      intros k x dx nD n dn Hn; auto 12 with dlin nocore.
  Qed.

  Definition Detd4rk (u v : St) : St :=
    let a := stA F I h z Eh N u in let da := DstA u v in
    let b := st4B F I h z Eh N u a in let db := Dst4B u a v da in
    let c := st4C F I h z Eh N u a b in let dc := Dst4C u a b v da db in
    fun k => E k * v k + h * ((phi1 (z k) (E k) - fz 3 * phi2 (z k) (E k) + fz 4 * phi3 (z k) (E k)) * DN u v k
                              + (fz 2 * phi2 (z k) (E k) - fz 4 * phi3 (z k) (E k)) * (DN a da k + DN b db k)
                              + (- phi2 (z k) (E k) + fz 4 * phi3 (z k) (E k)) * DN c dc k).

  Lemma etd4rk_dual : dual_deriv F I (etd4rk (K := DF) hD zD ED EhD ND) (etd4rk h z E Eh N) Detd4rk.
  Proof.
    apply (run_dual (tab4 DF I ED EhD hD zD) (tab4 F I E Eh h z)); cbn [tab4 fst snd]; [repeat constructor|];
      intros k x dx nD n dn Hn; auto 12 with dlin nocore.
  Qed.
End ETD.
