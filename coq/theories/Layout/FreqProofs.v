From Coq Require Import ZArith List Bool Lia.
From EXV Require Import Layout.Freq.
Local Open Scope Z_scope.

(* Floor division, N/2, (N-1)/2 and the slice bounds stated without division: le_div_iff, band_iff, lt_slice_left and
   fftfreq_spec turn the range, inverse and slice theorems below into linear arithmetic. *)
Lemma le_div_iff q a x : 0 < q -> x <= a / q <-> q * x <= a.
Proof. intros. Z.div_mod_to_equations. nia. Qed.

Lemma le_half N j : j <= N / 2 <-> 2 * j <= N.
Proof. apply le_div_iff. reflexivity. Qed.

Lemma band_iff N k : - (N / 2) <= k <= (N - 1) / 2 <-> - N <= 2 * k < N.
Proof. pose proof (le_half N (- k)). pose proof (le_half (N - 1) k). lia. Qed.

Lemma lt_slice_left n j : j < slice_left n <-> 2 * j < n.
Proof. unfold slice_left. pose proof (Zmod_even n). destruct (Z.even n); Z.div_mod_to_equations; lia. Qed.

Lemma fftfreq_spec N j : (2 * j < N /\ fftfreq N j = j) \/ (N <= 2 * j /\ fftfreq N j = j - N).
Proof. unfold fftfreq. pose proof (le_half (N - 1) j). destruct (j <=? (N - 1) / 2) eqn:E; lia. Qed.

Lemma fftfreq_low N j : 2 * j < N -> fftfreq N j = j.
Proof. destruct (fftfreq_spec N j) as [[_ E]|[? _]]; [intros _; exact E | lia]. Qed.
Lemma fftfreq_high N j : N <= 2 * j -> fftfreq N j = j - N.
Proof. destruct (fftfreq_spec N j) as [[? _]|[_ E]]; [lia | intros _; exact E]. Qed.

Lemma unfreq_spec N k : (0 <= k /\ unfreq N k = k) \/ (k < 0 /\ unfreq N k = k + N).
Proof. unfold unfreq. destruct (0 <=? k) eqn:E; lia. Qed.

Lemma fftfreq_range N j : 0 <= j < N -> - (N / 2) <= fftfreq N j <= (N - 1) / 2.
Proof. intros. apply band_iff. destruct (fftfreq_spec N j) as [[? ->]|[? ->]]; lia. Qed.

Lemma fftfreq_unfreq N k : - (N / 2) <= k <= (N - 1) / 2 -> fftfreq N (unfreq N k) = k.
Proof.
  intros Hk. apply band_iff in Hk.
  destruct (unfreq_spec N k) as [[? E]|[? E]], (fftfreq_spec N (unfreq N k)) as [[? ->]|[? ->]]; lia.
Qed.

Lemma unfreq_fftfreq N j : 0 <= j < N -> unfreq N (fftfreq N j) = j.
Proof.
  intros. destruct (fftfreq_spec N j) as [[? E]|[? E]], (unfreq_spec N (fftfreq N j)) as [[? ->]|[? ->]]; lia.
Qed.

Lemma unfreq_range N k : - (N / 2) <= k <= (N - 1) / 2 -> 0 <= unfreq N k < N.
Proof. intros Hk. apply band_iff in Hk. destruct (unfreq_spec N k) as [[? ->]|[? ->]]; lia. Qed.

(* the stored frequency is congruent to the index: exp(2 pi i j x / N) and exp(2 pi i fftfreq(j) x / N) agree on the grid *)
Lemma fftfreq_mod N j : fftfreq N j mod N = j mod N.
Proof.
  destruct (fftfreq_spec N j) as [[_ ->]|[_ ->]]; [reflexivity|]. rewrite Zminus_mod, Z_mod_same_full, Z.sub_0_r. apply Zmod_mod.
Qed.
Lemma fftfreq_congr N j : (fftfreq N j - j) mod N = 0.
Proof. rewrite Zminus_mod, fftfreq_mod, <- Zminus_mod, Z.sub_diag. apply Zmod_0_l. Qed.

(* negative of a stored frequency is stored too, except for the even-N Nyquist -N/2 *)
Lemma fftfreq_neg N j : 0 < N -> 0 <= j < N -> fftfreq N j <> - (N / 2) \/ Z.odd N = true ->
  - (N / 2) <= - fftfreq N j <= (N - 1) / 2.
Proof.
  intros HN Hj H. pose proof (fftfreq_range N j Hj) as R. apply band_iff. apply band_iff in R.
  pose proof (le_half N (- fftfreq N j)). pose proof (le_half N (1 - fftfreq N j)).
  destruct H as [H|H]; [|apply Z.odd_spec in H; destruct H as [c ->]]; lia.
Qed.

Lemma dealias_keeps_iff p q N k : 0 < q -> dealias_keeps p q N k = true <-> Z.abs k <= dealias_K p q N.
Proof.
  unfold dealias_keeps, dealias_K. intros Hq. rewrite Z.leb_le. pose proof (le_div_iff q (p * (N / 2)) (Z.abs k + 1) Hq). lia.
Qed.

Theorem cutoff_quadratic N : 0 <= N -> 3 * dealias_K 2 3 N < N.
Proof. unfold dealias_K. intros. Z.div_mod_to_equations. lia. Qed.

Theorem cutoff_cubic N : 0 <= N -> 4 * dealias_K 1 2 N < N.
Proof. unfold dealias_K. intros. Z.div_mod_to_equations. lia. Qed.

(* a sum of q+1 wavenumbers from [-K, K] shifted by a non-zero multiple of N leaves [-K, K] when (q+2) K < N:
   the aliases of a product of q+1 band-limited factors never fall back into the retained band *)
Theorem alias_out_of_band N K q s m :
  0 < N -> 0 <= q -> (q + 2) * K < N -> - (q + 1) * K <= s <= (q + 1) * K -> m <> 0 -> ~ (- K <= s + m * N <= K).
Proof.
  (* |m N| >= N > (q+2) K while |s| <= (q+1) K, so |s + m N| > K *)
  intros HN Hq HK Hs Hm. assert (m <= -1 \/ 1 <= m) as [H|H] by lia; nia.
Qed.

Lemma low_pass_axis_spec D N cutoff idx :
  low_pass_axis D N cutoff idx = true <-> forall k, In k (wnvec D N idx) -> Z.abs k <= cutoff.
Proof.
  unfold low_pass_axis. rewrite forallb_forall. split; intros H k Hk; apply Z.leb_le, H, Hk.
Qed.

Lemma oddball_odd D N idx : Z.odd N = true -> oddball_mask D N idx = true.
Proof. unfold oddball_mask. intros ->. reflexivity. Qed.

Lemma oddball_even D N idx : Z.even N = true ->
  oddball_mask D N idx = forallb (fun k => Z.abs k <=? N / 2 - 1) (wnvec D N idx).
Proof.
  unfold oddball_mask, low_pass_axis. intros H. rewrite <- Z.negb_even, H. cbn [negb].
  replace (N / 2 + 1 - 1 - 1) with (N / 2 - 1) by lia. reflexivity.
Qed.

Lemma wrap_index_small N j : 0 <= j < N -> wrap_index N j = j.
Proof. apply Z.mod_small. Qed.
Lemma wrap_index_same N : wrap_index N N = 0.
Proof. apply Z_mod_same_full. Qed.

Lemma in_left_iff n len j : in_left n len j = true <-> 0 <= j < len /\ 2 * j < n.
Proof. unfold in_left. pose proof (lt_slice_left n j). lia. Qed.
Lemma in_right_iff n len j : in_right n len j = true <-> 0 <= j < len /\ 2 * (len - j) <= n.
Proof. unfold in_right, slice_right. pose proof (le_half n (len - j)). lia. Qed.

(* every leading-axis index of the small grid lies in exactly one of the two slices (for even n the Nyquist row -n/2 belongs to the
   right slice); an index of the left slice keeps its position in the larger grid, an index of the right slice is shifted by m - n,
   and in both cases it denotes the same signed wavenumber in both grids *)
Theorem mode_blocks n m j : 0 < n -> n <= m -> 0 <= j < n ->
  ((in_left n n j = true /\ in_right n n j = false) \/ (in_left n n j = false /\ in_right n n j = true))
  /\ (in_left n n j = true -> in_left n m j = true /\ fftfreq m j = fftfreq n j)
  /\ (in_right n n j = true -> in_right n m (j + (m - n)) = true /\ fftfreq m (j + (m - n)) = fftfreq n j).
Proof.
  intros Hn Hm Hj. split; [rewrite <- !not_true_iff_false, in_left_iff, in_right_iff; lia|]. split; intros H.
  - apply in_left_iff in H. split; [apply in_left_iff; lia|]. rewrite !fftfreq_low by lia. reflexivity.
  - apply in_right_iff in H. split; [apply in_right_iff; lia|]. rewrite !fftfreq_high by lia. lia.
Qed.

(* last (rfft) axis: the indices 0..n/2 are kept in both grids (rfftfreq N j = j: the wavenumber is the index in either) *)
Theorem slice_last n m j : 0 < n -> n <= m -> 0 <= j <= n / 2 -> in_last n n j = true /\ in_last n m j = true.
Proof. unfold in_last. intros. Z.div_mod_to_equations. lia. Qed.

Lemma mesh_axis_involution xy D c : mesh_axis xy D (mesh_axis xy D c) = c.
Proof.
  unfold mesh_axis. destruct (xy && (2 <=? D)%nat); [|reflexivity].
  destruct c as [|[|c]]; reflexivity.
Qed.

(* in every dimension the component living on the last array axis is the rfft one *)
Lemma mesh_axis_last_iff xy D c : (c < D)%nat -> mesh_axis xy D c = (D - 1)%nat <-> c = rfft_component xy D.
Proof.
  unfold mesh_axis, rfft_component. intros H. destruct xy; cbn [andb]; [|reflexivity].
  destruct D as [|[|[|D]]]; [inversion H | reflexivity | |]; destruct c as [|[|c]]; cbn [Nat.leb Nat.eqb Nat.sub]; split; congruence.
Qed.

Theorem indexing_shape xy D N : (1 <= D <= 3)%nat ->
  map (wn_axis_len xy D N) (seq 0 D) = wavenumber_shape D N.
Proof.
  intros HD. destruct D as [|[|[|[|D]]]]; try lia; destruct xy; reflexivity.
Qed.

Theorem indexing_consistent xy D N c idx idx' : (1 <= D <= 3)%nat -> (c < D)%nat ->
  nth (mesh_axis xy D c) idx 0 = nth (mesh_axis xy D c) idx' 0 ->
  wavenumber xy D N c idx = wavenumber xy D N c idx'
  /\ (mesh_axis xy D c = (D - 1)%nat <-> c = rfft_component xy D).
Proof.
  intros _ Hc H. split; [unfold wavenumber; rewrite H; reflexivity | apply mesh_axis_last_iff; exact Hc].
Qed.
