From Coq Require Import ZArith List Bool Lia Field.
From EXV Require Import Base.Scalar Base.FieldLemmas Layout.FreqProofs Layout.Resample.
Import ListNotations.

Section Keep.
  Local Open Scope Z_scope.
  Definition nyq_free (n : Z) (k : list Z) : bool := forallb (fun kc => Z.abs kc <=? (n - 1) / 2) k.

  (* which wavenumbers a block copies, without division (cf. FreqProofs.le_half, lt_slice_left) *)
  Lemma lead_copied_iff n kc : lead_copied n kc = true <-> - n <= 2 * kc < n.
  Proof. unfold lead_copied. pose proof (lt_slice_left n kc). pose proof (le_half n (- kc)). lia. Qed.
  Lemma last_copied_iff n kc : last_copied n kc = true <-> 0 <= 2 * kc <= n.
  Proof. unfold last_copied. pose proof (le_half n kc). lia. Qed.
  Lemma nyq_free_iff n k : nyq_free n k = true <-> forall kc, In kc k -> 2 * Z.abs kc < n.
  Proof.
    unfold nyq_free. rewrite forallb_forall. split; intros H kc Hk; specialize (H kc Hk); pose proof (le_half (n - 1) (Z.abs kc)); lia.
  Qed.

  Lemma vec_copied_band n k : nyq_free n k = true -> hd 0 (rev k) >= 0 -> vec_copied n k = true.
  Proof.
    rewrite nyq_free_iff. induction k as [|x l IH]; [reflexivity|]. intros H Hlast.
    pose proof (H x (or_introl eq_refl)) as Hx. cbn [vec_copied]. destruct l as [|y l].
    - cbn in Hlast. apply last_copied_iff. lia.
    - apply andb_true_iff. split; [apply lead_copied_iff; lia|]. apply IH; [intros kc Hk; apply H; right; exact Hk|].
      cbn [rev] in Hlast |- *. destruct (rev l ++ [y]) eqn:R; [destruct (rev l); discriminate|]. exact Hlast.
  Qed.

  Lemma odd_ok_band n k : nyq_free n k = true -> odd_ok n k = true.
  Proof.
    rewrite nyq_free_iff. intros H. unfold odd_ok. pose proof (Zmod_even n) as E. destruct (Z.even n); [|reflexivity].
    apply forallb_forall. intros x Hx. specialize (H x Hx). Z.div_mod_to_equations. lia.
  Qed.

  Lemma nyq_free_mono n m k : 0 < n -> n <= m -> nyq_free n k = true -> nyq_free m k = true.
  Proof. intros Hn Hm. rewrite !nyq_free_iff. intros H x Hx. specialize (H x Hx). lia. Qed.

  (* every mode that the smaller grid resolves without its Nyquist wavenumber is kept (stored half: last component >= 0),
     whichever of the two grids is the finer one *)
  Theorem keeps_band n m ob k : nyq_free (Z.min n m) k = true -> hd 0 (rev k) >= 0 -> resample_keeps n m ob k = true.
  Proof.
    intros H Hl. unfold resample_keeps. rewrite (vec_copied_band _ k H Hl).
    destruct (Z.ltb_spec n m); [rewrite Z.min_l in H by lia | rewrite Z.min_r in H by lia]; cbn [andb].
    - replace (m <? n) with false by lia. destruct (Z.even n && ob); [rewrite (odd_ok_band n k H)|]; reflexivity.
    - destruct ((m <? n) && Z.even m && ob); [rewrite (odd_ok_band m k H)|]; reflexivity.
  Qed.

  Lemma zero_nyq_free n k : 0 < n -> Forall (fun c => c = 0) k -> nyq_free n k = true /\ hd 0 (rev k) >= 0.
  Proof.
    intros Hn H. split.
    - apply nyq_free_iff. rewrite Forall_forall in H. intros kc Hk. rewrite (H kc Hk). lia.
    - apply Forall_rev in H. destruct H as [|x l ->]; cbn; lia.
  Qed.
End Keep.

Section Coef.
  Variable F : FieldT.
  Add Field Ff : (fth F).
  Local Open Scope fld_scope.

  (* a band-limited Nyquist-free state keeps its trigonometric-polynomial coefficients a_k = u_hat(k)/N^D when mapped to a finer grid
     (or to a coarser grid that still resolves it): the new samples are samples of the same function *)
  Theorem coefficients_preserved (n m : Z) (ob : bool) (old : list Z -> F) (k : list Z) :
    (0 < n)%Z -> (0 < m)%Z -> nyq_free (Z.min n m) k = true -> (hd 0 (rev k) >= 0)%Z ->
    resample_coef F n m ob old k / fpow (fz m) (length k) = old k / fpow (fz n) (length k).
  Proof.
    intros Hn Hm H Hl. unfold resample_coef. destruct (Z.eqb_spec n m) as [->|Hne]; [reflexivity|].
    rewrite keeps_band by assumption.
    assert (Nn : @fz F n <> 0) by (apply fz_neq0; lia). assert (Nm : @fz F m <> 0) by (apply fz_neq0; lia).
    rewrite fpow_div by exact Nn. field. split; apply fpow_neq0; assumption.
  Qed.

  (* in particular every resolution change preserves the mean of ANY state: new(0)/m^D = old(0)/n^D *)
  Theorem mean_preserved (n m : Z) (ob : bool) (old : list Z -> F) (k : list Z) :
    (2 <= n)%Z -> (2 <= m)%Z -> Forall (fun c => c = 0%Z) k ->
    resample_coef F n m ob old k / fpow (fz m) (length k) = old k / fpow (fz n) (length k).
  Proof.
    intros Hn Hm H. destruct (zero_nyq_free (Z.min n m) k ltac:(lia) H). apply coefficients_preserved; try assumption; lia.
  Qed.
End Coef.
