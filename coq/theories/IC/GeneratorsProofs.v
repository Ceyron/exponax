(* The generators of IC/Normalize.v beyond the normalisation algebra.  The one argument with content: the characters are orthogonal
   in every dimension (DFTD.chi_orthogonal), so the mean of an inverse transform is its DC coefficient over N^D (mean_idftD) - which is why
   RandomTruncatedFourierSeries has to write offset * N^D there.  Guards, shapes and function forms are case analyses over the
   generator terms.  The lemmas before the first section read raise conditions of Gen/Guards.v (a chain of raises as a disjunction, the
   option check the generators share) and are about no definition of IC/Normalize.v: Props/C18.v and Props/C20.v both take them from here.  Props/C20.v also rewrites
   with sh_eqb_eq (at the end of this file) in goals about Gen.Guards.shape_eqb: the two Fixpoints have the same body and are convertible. *)
From Coq Require Import ZArith Bool Field List Lia.
From EXV Require Import Base.Scalar Base.FieldLemmas DFT.DFT1 Layout.Freq IC.Normalize DFT.DFTD Gen.Guards.
Import ListNotations.
Local Open Scope fld_scope.

(* `if a: raise ...; if b: raise ...` is translated to a || (negb a && b): the second test is reached only if the first passed *)
Lemma raise_chain a b : a || (negb a && b) = a || b.
Proof. destruct a; reflexivity. Qed.

Lemma negb_eqb_true_iff a b : negb (a =? b)%Z = true <-> a <> b.
Proof. rewrite negb_true_iff. apply Z.eqb_neq. Qed.

Lemma ic_options_raise_iff zm so mo :
  ic_options_raise zm so mo = true <-> (zm = false /\ so = true) \/ (so = true /\ mo = true).
Proof. unfold ic_options_raise. rewrite raise_chain, orb_true_iff, !andb_true_iff, negb_true_iff. reflexivity. Qed.

(* RandomSineWaves1d / SineWaves1d: the dimension (resp. length) test joins the common option check *)
Lemma random_sine_raises_eq D oz so mo : random_sine_raises D oz so mo = negb (D =? 1)%Z || ic_options_raise oz so mo.
Proof. unfold random_sine_raises, ic_options_raise. rewrite <- negb_orb, !raise_chain, orb_assoc. reflexivity. Qed.

Lemma sine_waves_raises_eq oz so mo na nw np : (0 <= na)%Z -> (0 <= nw)%Z -> (0 <= np)%Z ->
  sine_waves_raises oz so mo na nw np = ic_options_raise oz so mo || (negb (na =? nw)%Z || negb (nw =? np)%Z).
Proof.
  intros. unfold sine_waves_raises, ic_options_raise. rewrite !repeat_length, !Z2Nat.id by assumption.
  rewrite <- negb_orb, !raise_chain. reflexivity.
Qed.

Section OffsetProofs.
  Variable F : FieldT.
  Add Field Ffg : (fth F).
  Notation K := (fops F).

  Variable n : nat.
  Variable w' : K.
  Hypothesis n_pos : (0 < n)%nat.
  Hypothesis w'_n : fpow w' n = 1.
  Hypothesis w'_prim : forall m, (0 < m < n)%nat -> fpow w' m <> 1.

  Lemma is_dc_zero_idx D : is_dc (zero_idx D) = true.
  Proof. induction D as [|D IH]; [reflexivity|]. cbn. exact IH. Qed.

  (* w'^(n-1) is the inverse root, so the D-dimensional orthogonality of DFT/DFTD.v applies *)
  Lemma w'_wi : w' * fpow w' (n - 1) = 1.
  Proof. change (fpow w' (S (n - 1)) = 1). replace (S (n - 1)) with n by lia. exact w'_n. Qed.

  Lemma chi_zero_idx (v : K) D j : chi K v j (zero_idx D) = 1.
  Proof.
    revert j. induction D as [|D IH]; intros [|a j]; cbn [zero_idx repeat chi]; try reflexivity.
    rewrite Nat.mul_0_r. fold (zero_idx D). rewrite IH. cbn [fpow]. ring.
  Qed.

  Lemma zero_idx_grid D : In (zero_idx D) (gridD D n).
  Proof. apply (in_gridD_iff n n_pos). split; [apply repeat_length|]. apply Forall_forall. intros b Hb. apply repeat_spec in Hb. subst b. exact n_pos. Qed.

  Lemma idftD_ft (v : K) D U j : idftD K D n v U j = ft F _ (gridD D n) (chi K v) U j / npts K D n.
  Proof. unfold idftD. f_equal. apply sumD_ext. intros k _. rewrite (chi_sym F v j k). reflexivity. Qed.

  (* the mean is the transform at the zero mode *)
  Lemma mean_idftD D (U : list nat -> K) : meanD K D n (idftD K D n w' U) = U (zero_idx D) / npts K D n.
  Proof.
    unfold meanD. f_equal.
    rewrite (sumD_ext F n D _ (fun j => oinv (npts K D n) * (ft F _ (gridD D n) (chi K w') U j * chi K (fpow w' (n - 1)) j (zero_idx D))))
      by (intros j _; rewrite chi_zero_idx, idftD_ft, fdiv_def; ring).
    rewrite sumD_scal, sumD_tsum, <- ft_tsum.
    rewrite (ft_inverse F _ _ (NoDup_gridD n D) _ _ _ U _ (chi_sym F w')
               (orthogonal_sym F _ _ _ _ _ (chi_orthogonal F n w' _ n_pos w'_n w'_prim w'_wi D)) (zero_idx_grid D)).
    field. apply npts_nz, n_pos.
  Qed.

  Lemma idftD_1 (U : list nat -> K) j : idftD K 1 n w' U [j] = idft n w' (fun k => U [k]) j.
  Proof.
    unfold idftD, idft, npts. rewrite sumD_S. cbn [fpow].
    rewrite (bsum_ext F n _ (fun k => U [k] * fpow w' (j * k))).
    - rewrite !fdiv_def. f_equal. f_equal. ring.
    - intros a _. rewrite sumD_0. cbn [chi]. ring.
  Qed.

  Lemma tfs_mean noise_hat keep offset D : meanD K D n (idftD K D n w' (tfs_spectrum K noise_hat keep offset D n)) = offset.
  Proof.
    rewrite mean_idftD. unfold tfs_spectrum. rewrite is_dc_zero_idx. unfold tfs_dc. field. apply npts_nz, n_pos.
  Qed.

  Lemma tfs_mean_defect (noise_hat : list nat -> K) (keep : list nat -> bool) (offset : K) D :
    meanD K D n (idftD K D n w' (fun k => if is_dc k then tfs_dc_defect K offset D n else if keep k then noise_hat k else 0))
    = offset / npts K D n.
  Proof. rewrite mean_idftD. rewrite is_dc_zero_idx. reflexivity. Qed.

  Lemma tfs_band noise_hat keep offset D k : is_dc k = false -> keep k = false -> tfs_spectrum K noise_hat keep offset D n k = 0.
  Proof. intros H1 H2. unfold tfs_spectrum. rewrite H1, H2. reflexivity. Qed.

  Lemma tfs_inside noise_hat keep offset D k : is_dc k = false -> keep k = true -> tfs_spectrum K noise_hat keep offset D n k = noise_hat k.
  Proof. intros H1 H2. unfold tfs_spectrum. rewrite H1, H2. reflexivity. Qed.
End OffsetProofs.

Section GRFProofs.
  Variable F : FieldT.
  Add Field Ffgrf : (fth F).
  Notation K := (fops F).
  Variable powf : K -> K -> K.
  Variable nrm : list Z -> K.

  Lemma grf_mean_mode D N alpha idx : is_zero_idx idx = true -> grf_amplitude K powf nrm D N alpha idx = 1.
  Proof. intros H. unfold grf_amplitude. rewrite H. reflexivity. Qed.

  Lemma grf_other_modes D N alpha idx : is_zero_idx idx = false ->
    grf_amplitude K powf nrm D N alpha idx = powf (nrm (wnvec D N idx)) (- alpha / two).
  Proof. intros H. unfold grf_amplitude, grf_exponent. rewrite H. reflexivity. Qed.

  Lemma is_zero_idx_false idx c : nth c idx 0%Z <> 0%Z -> is_zero_idx idx = false.
  Proof.
    unfold is_zero_idx. revert c. induction idx as [|a idx IH]; intros c H.
    - destruct c; cbn in H; congruence.
    - cbn [forallb]. destruct c as [|c]; cbn [nth] in H.
      + destruct (Z.eqb_spec 0 a); [congruence | reflexivity].
      + rewrite (IH c H). apply andb_false_r.
  Qed.

  (* the power spectrum follows the power law: amplitude^2 = |k|^(-alpha)  (premise: the law of exponents at this point) *)
  Lemma grf_power_spectrum D N alpha idx :
    (let x := nrm (wnvec D N idx) in let e := - alpha / two in powf x e * powf x e = powf x (e + e)) ->
    is_zero_idx idx = false ->
    grf_amplitude K powf nrm D N alpha idx * grf_amplitude K powf nrm D N alpha idx = powf (nrm (wnvec D N idx)) (- alpha).
  Proof.
    cbv zeta. intros Hp H. rewrite grf_other_modes by exact H. rewrite Hp. f_equal. unfold two. field.
    exact (two_neq0 F).
  Qed.

  (* link to the executable rational form for alpha = 2 m *)
  Lemma grf_amp_sq_even_ok (s : K) D N (m : nat) idx :
    let x := nrm (wnvec D N idx) in let alpha := fz (Z.of_nat (2 * m)) in
    (let e := - alpha / two in powf x e * powf x e = powf x (e + e)) ->
    x * x = s * s * fz (norm2 (wnvec D N idx)) ->
    powf x (- alpha) = oinv (fpow (x * x) m) ->
    grf_amplitude K powf nrm D N alpha idx * grf_amplitude K powf nrm D N alpha idx = grf_amp_sq_even K s m D N idx.
  Proof.
    cbv zeta. intros H1 H2 H3. unfold grf_amp_sq_even. destruct (is_zero_idx idx) eqn:E.
    - rewrite grf_mean_mode by exact E. ring.
    - rewrite grf_power_spectrum by assumption. rewrite H3, H2. reflexivity.
  Qed.
End GRFProofs.

Local Open Scope Z_scope.

Lemma sh_eqb_eq a b : sh_eqb a b = true <-> a = b.
Proof.
  revert b. induction a as [|x a IH]; intros [|y b]; cbn; split; intros H; try congruence; try discriminate.
  - apply andb_true_iff in H. destruct H as [H1 H2]. apply Z.eqb_eq in H1. apply IH in H2. congruence.
  - inversion H; subst. rewrite Z.eqb_refl. cbn. apply IH. reflexivity.
Qed.

Lemma bcast_same a : bcast a a = Some a.
Proof. induction a as [|x a IH]; [reflexivity|]. cbn. unfold bdim. rewrite Z.eqb_refl, IH. reflexivity. Qed.

Lemma bcast_lead1 d a : bcast (d :: a) (1 :: a) = Some (d :: a).
Proof.
  cbn. rewrite bcast_same. unfold bdim. destruct (Z.eqb_spec d 1) as [->|H]; reflexivity.
Qed.

Lemma slice0_unit D sp i : 0 <= i < D -> slice0 i (i + 1) (D :: sp) = 1 :: sp.
Proof. intros H. unfold slice0. f_equal. lia. Qed.

Lemma fold_left_fixed {A B} (f : A -> B -> A) (l : list B) (a : A) : (forall i, In i l -> f a i = a) -> fold_left f l a = a.
Proof.
  induction l as [|i l IH]; intros H; cbn [fold_left]; [reflexivity|].
  rewrite (H i (or_introl eq_refl)). apply IH. intros j Hj. apply H. right. exact Hj.
Qed.

Lemma disc_mask_from_stable init D sp nlim :
  (Z.of_nat nlim <= D) -> bcast init (1 :: sp) = Some init -> disc_mask_from init (D :: sp) nlim = Some init.
Proof.
  intros Hn Hb. unfold disc_mask_from. apply fold_left_fixed. intros i Hi. apply in_seq in Hi.
  rewrite slice0_unit by lia. rewrite Hb, Hb. reflexivity.
Qed.

Lemma disc_shape_one_channel D sp nlim : 1 <= D -> Z.of_nat nlim <= D -> disc_shape (D :: sp) nlim = Some (1 :: sp).
Proof.
  intros HD Hn. unfold disc_shape. rewrite slice0_unit by lia. apply disc_mask_from_stable; [exact Hn | apply bcast_same].
Qed.

(* with ones_like(x) as initial mask (disc_shape_defect: Discontinuity before /repo f3c3edf) the result has D channels *)
Lemma disc_shape_defect_D_channels D sp nlim : Z.of_nat nlim <= D -> disc_shape_defect (D :: sp) nlim = Some (D :: sp).
Proof. intros Hn. unfold disc_shape_defect. apply disc_mask_from_stable; [exact Hn | apply bcast_lead1]. Qed.

Lemma single_dims g : single g = true -> exists D, gen_dims g = Some D.
Proof.
  induction g as [k D|g IH|g IH|gs]; cbn; intros H; try discriminate; eauto.
Qed.

Fixpoint ctor_ok (g : gen) : bool :=       (* every base generator inside can be constructed *)
  match g with
  | GBase k D => negb (base_ctor_raises k D)
  | GScaled g' | GClamp g' => ctor_ok g'
  | GMulti gs => forallb ctor_ok gs
  end.

Lemma single_shape N g : single g = true -> ctor_ok g = true ->
  exists D, gen_dims g = Some D /\ gen_shape N g = Some (1 :: spatial D N).
Proof.
  induction g as [k D|g IH|g IH|gs]; cbn [single ctor_ok gen_dims gen_shape]; intros H C; try discriminate.
  - exists D. split; [reflexivity|]. apply negb_true_iff in C. rewrite C. reflexivity.
  - destruct (IH H C) as [D [H1 H2]]. exists D. rewrite H1. split; [reflexivity | exact H2].
  - destruct (IH H C) as [D [H1 H2]]. exists D. rewrite H1. split; [reflexivity | exact H2].
Qed.

Lemma fold_cat2_same sp (l : list (option (list Z))) c :
  Forall (fun o => o = Some (1 :: sp)) l -> fold_left cat2 l (Some (c :: sp)) = Some (c + Z.of_nat (length l) :: sp).
Proof.
  revert c. induction l as [|o l IH]; intros c H; cbn [fold_left length].
  - f_equal. f_equal. cbn. lia.
  - inversion H as [|? ? Ho Hl]; subst. cbn [cat2]. rewrite (proj2 (sh_eqb_eq _ _) eq_refl). rewrite IH by exact Hl.
    f_equal. f_equal. lia.
Qed.

(* multi-channel wrapper around n >= 1 single-field generators of the same dimension: n channels *)
Lemma multi_shape N D gs : gs <> [] ->
  Forall (fun g => single g = true /\ ctor_ok g = true /\ gen_dims g = Some D) gs ->
  gen_shape N (GMulti gs) = Some (Z.of_nat (length gs) :: spatial D N).
Proof.
  intros Hne H. cbn [gen_shape].
  assert (A : Forall (fun o => o = Some (1 :: spatial D N)) (map (gen_shape N) gs)).
  { apply Forall_map. revert H. apply Forall_impl. intros g [H1 [H2 H3]].
    destruct (single_shape N g H1 H2) as [D' [E1 E2]]. rewrite E1 in H3. injection H3 as <-. exact E2. }
  destruct gs as [|g gs]; [congruence|]. cbn [map concat0]. inversion A as [|? ? A1 A2]; subst.
  rewrite A1. rewrite fold_cat2_same by exact A2. rewrite map_length. cbn [length].
  f_equal. f_equal. lia.
Qed.

(* a wrapper needs the num_spatial_dims attribute of what it wraps *)
Lemma wrapper_of_multi_rejected N gs : gen_shape N (GScaled (GMulti gs)) = None /\ gen_shape N (GClamp (GMulti gs)) = None.
Proof. split; reflexivity. Qed.

Section FunFormProofs.
  Variables (Key Grid Field : Type).
  Variable mk_grid : Z -> Grid.
  Variable scale_field : Field -> Field.
  Variable split : Key -> nat -> list Key.
  Variable cat : list Field -> Field.

  Definition agrees (s : sampler Key Field) (f : funform Key Grid Field) : Prop := forall N key, s N key = f key (mk_grid N).

  Lemma base_agrees f : agrees (base_call Key Grid Field mk_grid f) f.
  Proof. intros N key. reflexivity. Qed.

  Lemma scaled_agrees s f : agrees s f -> agrees (scaled_call Key Field scale_field s) (scaled_fun Key Grid Field scale_field f).
  Proof. intros H N key. unfold scaled_call, scaled_fun. rewrite H. reflexivity. Qed.

  Lemma multi_agrees (sf : list (sampler Key Field * funform Key Grid Field)) :
    Forall (fun p => agrees (fst p) (snd p)) sf ->
    agrees (multi_call Key Field split cat (map fst sf)) (multi_fun Key Grid Field split cat (map snd sf)).
  Proof.
    intros H N key. unfold multi_call, multi_fun. rewrite !map_length. f_equal.
    generalize (split key (length sf)). induction H as [|[s f] sf Hp Hsf IH]; intros ks; [reflexivity|].
    destruct ks as [|k ks]; [reflexivity|]. cbn [map combine fst snd] in *. rewrite (Hp N k). f_equal. apply IH.
  Qed.
End FunFormProofs.
