(* Lemmas about IC/Normalize.v: normalisation, clamping, scaling (abstract field of characteristic 0, ordered where needed). *)
From Coq Require Import QArith Qcanon List Lia.
From EXV Require Import Base.Scalar Base.FieldLemmas IC.Normalize.
Import ListNotations.
Local Open Scope fld_scope.

(* the laws of [leb] used below (premises of the theorems; Qc satisfies them: Qc_ordered at the end of this file) *)
Record OrderedF (F : FieldT) (leb : F -> F -> bool) : Prop := mkOrderedF {
  leb_total : forall a b : F, leb a b = true \/ leb b a = true;
  leb_trans : forall a b c : F, leb a b = true -> leb b c = true -> leb a c = true;
  leb_antisym : forall a b : F, leb a b = true -> leb b a = true -> a = b;
  leb_add : forall a b c : F, leb a b = true -> leb (a + c) (b + c) = true;
  leb_mul : forall a b c : F, leb 0 c = true -> leb a b = true -> leb (a * c) (b * c) = true }.

(* a fold of a binary choice m returns one of the candidates, and bounds them all for any preorder R that m respects;
   lmax and lmin are the instances m := fmax2 / fmin2, R := the order / its converse *)
Section FoldChoice.
  Context {A : Type} (m : A -> A -> A).

  Lemma fold_left_choice : (forall a b, m a b = a \/ m a b = b) -> forall l a, In (fold_left m l a) (a :: l).
  Proof.
    intros Hm. induction l as [|y l IH]; intros a; cbn [fold_left]; [left; reflexivity|].
    destruct (IH (m a y)) as [H|H]; [|right; right; exact H].
    rewrite <- H. destruct (Hm a y) as [E|E]; rewrite E; [left | right; left]; reflexivity.
  Qed.

  Lemma fold_left_bound (R : A -> A -> Prop) : (forall a, R a a) -> (forall a b c, R a b -> R b c -> R a c) ->
    (forall a b, R a (m a b) /\ R b (m a b)) -> forall l a x, In x (a :: l) -> R x (fold_left m l a).
  Proof.
    intros Rr Rt Hm. induction l as [|y l IH]; intros a x Hx; cbn [fold_left].
    - destruct Hx as [<-|[]]. apply Rr.
    - destruct Hx as [<-|[<-|Hx]]; [| |apply IH; right; exact Hx];
        (apply (Rt _ (m a y)); [apply Hm | apply IH; left; reflexivity]).
  Qed.
End FoldChoice.

Section MeanVar.
  Variable F : FieldT.
  Add Field Ff : (fth F).
  Notation K := (fops F).
  Implicit Types l : list K.

  Lemma flen_nz l : l <> [] -> flen K l <> 0.
  Proof. intros H. unfold flen. apply fz_neq0. destruct l; [congruence | cbn [length]; lia]. Qed.

  Lemma flen_map {A} (f : A -> K) (g : A -> K) (l : list A) : flen K (map f l) = flen K (map g l).
  Proof. unfold flen. rewrite !map_length. reflexivity. Qed.

  Lemma fsum_sub_const l c : fsum (map (fun x => x - c) l) = fsum l - flen K l * c.
  Proof.
    unfold flen. induction l as [|a l IH]; cbn [map fsum length]; [cbn; ring|].
    rewrite IH, Nat2Z.inj_succ. unfold Z.succ. rewrite fz_add. cbn [fz fpos]. ring.
  Qed.

  Lemma center_sum l : l <> [] -> fsum (center K l) = 0.
  Proof.
    intros H. unfold center. rewrite fsum_sub_const. unfold mean. field. apply flen_nz. exact H.
  Qed.

  Lemma center_mean l : l <> [] -> mean K (center K l) = 0.
  Proof.
    intros H. unfold mean at 1. rewrite center_sum by exact H.
    unfold center. rewrite fdiv_def. ring.
  Qed.

  Lemma center_length l : length (center K l) = length l.
  Proof. unfold center. apply map_length. Qed.

  Lemma scaled_nth s l i d : nth i (scaled K s l) (d * s) = nth i l d * s.
  Proof. unfold scaled. rewrite (map_nth (fun x => x * s)). reflexivity. Qed.

  Lemma scaled_mean s l : mean K (scaled K s l) = mean K l * s.
  Proof.
    unfold mean, scaled, flen. rewrite (fsum_map_scal_r F l s (fun x => x)), map_id, map_length, !fdiv_def. ring.
  Qed.

  Lemma center_scaled s l : center K (scaled K s l) = scaled K s (center K l).
  Proof.
    unfold center. rewrite scaled_mean. unfold scaled. rewrite !map_map. apply map_ext. intros a. ring.
  Qed.

  Lemma variance_scaled s l : variance K (scaled K s l) = variance K l * (s * s).
  Proof.
    unfold variance. rewrite center_scaled, <- scaled_mean. f_equal. unfold scaled, sq. rewrite !map_map.
    apply map_ext. intros a. ring.
  Qed.

  (* division by a constant is scaling by its inverse: the facts about div_all below are facts about scaled *)
  Lemma div_all_scaled l c : div_all K l c = scaled K (oinv c) l.
  Proof. unfold div_all, scaled. apply map_ext. intros x. apply fdiv_def. Qed.

  Lemma std_one_variance l s : s * s = variance K l -> variance K l <> 0 -> variance K (div_all K l s) = 1.
  Proof.
    intros Hs Hv. assert (Hs0 : s <> 0) by (intro E; apply Hv; rewrite <- Hs, E; ring).
    rewrite div_all_scaled, variance_scaled, <- Hs. field. exact Hs0.
  Qed.

  Lemma div_mean_zero l c : mean K l = 0 -> mean K (div_all K l c) = 0.
  Proof. intros H. rewrite div_all_scaled, scaled_mean, H. ring. Qed.

  Lemma variance_nil : variance K [] = 0.
  Proof. unfold variance, mean. cbn. rewrite fdiv_def. ring. Qed.
End MeanVar.

Section Ordered.
  Variable F : FieldT.
  Add Field Ffo : (fth F).
  Notation K := (fops F).
  Variable leb : K -> K -> bool.
  Hypothesis OF : OrderedF F leb.
  Implicit Types l : list K.
  Implicit Types a b c x y : K.

  Let tot := @leb_total _ _ OF.
  Let tra := @leb_trans _ _ OF.
  Let asy := @leb_antisym _ _ OF.
  Let ladd := @leb_add _ _ OF.
  Let lmul := @leb_mul _ _ OF.

  Lemma leb_refl a : leb a a = true.
  Proof. destruct (tot a a); assumption. Qed.

  Lemma leb_false a b : leb a b = false -> leb b a = true.
  Proof. intros H. destruct (tot a b) as [E|E]; [congruence | exact E]. Qed.

  Lemma leb_opp a b : leb a b = true -> leb (- b) (- a) = true.
  Proof.
    intros H. pose proof (ladd _ _ (- a - b) H) as E.
    replace (a + (- a - b)) with (- b) in E by ring. replace (b + (- a - b)) with (- a) in E by ring. exact E.
  Qed.

  Lemma leb_sub_const a b c : leb a b = true -> leb (a - c) (b - c) = true.
  Proof.
    intros H. pose proof (ladd _ _ (- c) H) as E.
    replace (a + - c) with (a - c) in E by ring. replace (b + - c) with (b - c) in E by ring. exact E.
  Qed.

  Lemma mul_nonneg a b : leb 0 a = true -> leb 0 b = true -> leb 0 (a * b) = true.
  Proof. intros Ha Hb. pose proof (lmul _ _ b Hb Ha) as E. replace (0 * b) with (0 : K) in E by ring. exact E. Qed.

  (* 0 <= 1: otherwise 0 <= -1, and then 0 <= (-1)(-1) = 1 *)
  Lemma leb_0_1 : leb 0 1 = true.
  Proof.
    destruct (tot 0 1) as [H|H]; [exact H|]. apply leb_opp in H. replace (- (0 : K)) with (0 : K) in H by ring.
    pose proof (mul_nonneg _ _ H H) as E. replace (- (1) * - (1)) with (1 : K) in E by ring. exact E.
  Qed.

  Lemma inv_nonneg c : leb 0 c = true -> c <> 0 -> leb 0 (oinv c) = true.
  Proof.
    intros Hc Hn. destruct (tot 0 (oinv c)) as [H|H]; [exact H|]. exfalso.
    pose proof (lmul _ _ c Hc H) as E. replace (oinv c * c) with (1 : K) in E by (field; exact Hn).
    replace (0 * c) with (0 : K) in E by ring.
    apply (f_1_neq_0 F). apply asy; [exact E | apply leb_0_1].
  Qed.

  Lemma leb_div c a b : leb 0 c = true -> c <> 0 -> leb a b = true -> leb (a / c) (b / c) = true.
  Proof. intros Hc Hn H. rewrite !fdiv_def. apply lmul; [apply inv_nonneg; assumption | exact H]. Qed.

  Definition mono (f : K -> K) : Prop := forall a b, leb a b = true -> leb (f a) (f b) = true.

  Lemma fmax2_ge_l a b : leb a (fmax2 K leb a b) = true.
  Proof. unfold fmax2. destruct (leb a b) eqn:E; [exact E | apply leb_refl]. Qed.
  Lemma fmax2_ge_r a b : leb b (fmax2 K leb a b) = true.
  Proof. unfold fmax2. destruct (leb a b) eqn:E; [apply leb_refl | apply leb_false; exact E]. Qed.
  Lemma fmin2_le_l a b : leb (fmin2 K leb a b) a = true.
  Proof. unfold fmin2. destruct (leb a b) eqn:E; [apply leb_refl | apply leb_false; exact E]. Qed.
  Lemma fmin2_le_r a b : leb (fmin2 K leb a b) b = true.
  Proof. unfold fmin2. destruct (leb a b) eqn:E; [exact E | apply leb_refl]. Qed.

  Lemma lmax_ge l x : In x l -> leb x (lmax K leb l) = true.
  Proof.
    destruct l as [|a l]; [intros []|].
    apply (fold_left_bound (fmax2 K leb) (fun u v => leb u v = true) leb_refl tra). intros u v. split; [apply fmax2_ge_l | apply fmax2_ge_r].
  Qed.
  Lemma lmin_le l x : In x l -> leb (lmin K leb l) x = true.
  Proof.
    destruct l as [|a l]; [intros []|].
    apply (fold_left_bound (fmin2 K leb) (fun u v => leb v u = true) leb_refl (fun u v w H1 H2 => tra w v u H2 H1)).
    intros u v. split; [apply fmin2_le_l | apply fmin2_le_r].
  Qed.
  Lemma lmax_in l : l <> [] -> In (lmax K leb l) l.
  Proof.
    destruct l as [|a l]; [congruence|]. intros _. apply fold_left_choice. intros u v. unfold fmax2. destruct (leb u v); auto.
  Qed.
  Lemma lmin_in l : l <> [] -> In (lmin K leb l) l.
  Proof.
    destruct l as [|a l]; [congruence|]. intros _. apply fold_left_choice. intros u v. unfold fmin2. destruct (leb u v); auto.
  Qed.
  (* the greatest (least) element is unique, so a monotone map carries it to the greatest (least) element of the image *)
  Lemma lmax_unique l m : In m l -> (forall x, In x l -> leb x m = true) -> lmax K leb l = m.
  Proof.
    intros Hm Hb. assert (Hl : l <> []) by (intros ->; destruct Hm).
    apply asy; [apply Hb, lmax_in, Hl | apply lmax_ge, Hm].
  Qed.
  Lemma lmin_unique l m : In m l -> (forall x, In x l -> leb m x = true) -> lmin K leb l = m.
  Proof.
    intros Hm Hb. assert (Hl : l <> []) by (intros ->; destruct Hm).
    apply asy; [apply lmin_le, Hm | apply Hb, lmin_in, Hl].
  Qed.

  Lemma lmax_mono f l : mono f -> l <> [] -> lmax K leb (map f l) = f (lmax K leb l).
  Proof.
    intros Hf Hl. apply lmax_unique; [apply in_map, lmax_in, Hl|].
    intros y Hy. apply in_map_iff in Hy. destruct Hy as [x [<- Hx]]. apply Hf, lmax_ge, Hx.
  Qed.
  Lemma lmin_mono f l : mono f -> l <> [] -> lmin K leb (map f l) = f (lmin K leb l).
  Proof.
    intros Hf Hl. apply lmin_unique; [apply in_map, lmin_in, Hl|].
    intros y Hy. apply in_map_iff in Hy. destruct Hy as [x [<- Hx]]. apply Hf, lmin_le, Hx.
  Qed.

  Lemma fabs_nonneg x : leb 0 (fabs K leb x) = true.
  Proof.
    unfold fabs. destruct (leb 0 x) eqn:E; [exact E|]. apply leb_false in E. apply leb_opp in E.
    replace (- (0 : K)) with (0 : K) in E by ring. exact E.
  Qed.

  Lemma fabs_of_nonneg x : leb 0 x = true -> fabs K leb x = x.
  Proof. unfold fabs. intros ->. reflexivity. Qed.

  Lemma fabs_sq x : fabs K leb x * fabs K leb x = x * x.
  Proof. unfold fabs. destruct (leb 0 x); ring. Qed.

  Lemma nonneg_sq_inj a b : leb 0 a = true -> leb 0 b = true -> a * a = b * b -> a = b.
  Proof.
    intros Ha Hb E. assert (E2 : (a - b) * (a + b) = 0) by (transitivity (a * a - b * b); [ring | rewrite E; ring]).
    destruct (fmul_eq0 F _ _ E2) as [H|H]; [apply (fsub_eq0 F); exact H|].
    (* a = -b with both non-negative: both are 0 *)
    assert (Eb : b = - a) by (transitivity (a + b - a); [ring | rewrite H; ring]).
    apply leb_opp in Ha. replace (- (0 : K)) with (0 : K) in Ha by ring. rewrite <- Eb in Ha.
    rewrite (asy _ _ Ha Hb) in Eb |- *. apply (fopp_eq0 F). symmetry. exact Eb.
  Qed.

  Lemma fabs_mul x s : fabs K leb (x * s) = fabs K leb x * fabs K leb s.
  Proof.
    (* both sides are non-negative and have the same square *)
    apply nonneg_sq_inj; [apply fabs_nonneg | apply mul_nonneg; apply fabs_nonneg |].
    rewrite fabs_sq. transitivity (x * x * (s * s)); [ring|]. rewrite <- (fabs_sq x), <- (fabs_sq s). ring.
  Qed.

  Lemma maxabs_nonneg l : leb 0 (maxabs K leb l) = true.
  Proof.
    unfold maxabs. destruct l as [|a l]; [apply leb_refl|].
    eapply tra; [apply (fabs_nonneg a) | apply lmax_ge; left; reflexivity].
  Qed.

  Lemma maxabs_scaled s l : maxabs K leb (scaled K s l) = maxabs K leb l * fabs K leb s.
  Proof.
    unfold maxabs, scaled. rewrite map_map.
    rewrite (map_ext (fun x => fabs K leb (x * s)) (fun x => fabs K leb x * fabs K leb s)) by (intros; apply fabs_mul).
    rewrite <- (map_map (fabs K leb) (fun y => y * fabs K leb s)).
    destruct l as [|a l]; [cbn; ring|].
    apply lmax_mono; [|discriminate]. intros u v Huv. apply lmul; [apply fabs_nonneg | exact Huv].
  Qed.

  Lemma maxabs_scaled_unit s l : maxabs K leb l = 1 -> maxabs K leb (scaled K s l) = fabs K leb s.
  Proof. intros H. rewrite maxabs_scaled, H. ring. Qed.

  Lemma max_one_spec l : maxabs K leb l <> 0 -> maxabs K leb (div_all K l (maxabs K leb l)) = 1.
  Proof.
    intros H. rewrite (div_all_scaled F), maxabs_scaled, fabs_of_nonneg by (apply inv_nonneg; [apply maxabs_nonneg | exact H]).
    field. exact H.
  Qed.

  Lemma maxabs_bound l x : In x l -> leb (fabs K leb x) (maxabs K leb l) = true.
  Proof. intros H. unfold maxabs. apply lmax_ge. apply in_map. exact H. Qed.
  Lemma maxabs_attained l : l <> [] -> exists x, In x l /\ fabs K leb x = maxabs K leb l.
  Proof.
    intros H. unfold maxabs. assert (Hm : map (fabs K leb) l <> []) by (destruct l; [congruence | discriminate]).
    pose proof (lmax_in _ Hm) as Hin. apply in_map_iff in Hin. destruct Hin as [x [E Hx]]. exists x. split; [exact Hx | exact E].
  Qed.

  Lemma clamp_formula lo hi l : l <> [] ->
    clamp K leb lo hi l = map (fun x => clamp_point K x (lmin K leb l) (lmax K leb l - lmin K leb l) lo hi) l.
  Proof.
    intros H. unfold clamp, clamp_point. rewrite (lmax_mono (fun x => x - lmin K leb l)), !map_map; [reflexivity | | exact H].
    intros a b Hab. apply leb_sub_const. exact Hab.
  Qed.

  Lemma clamp_point_min mn d lo hi : d <> 0 -> clamp_point K mn mn d lo hi = lo.
  Proof. intros Hd. unfold clamp_point. field. exact Hd. Qed.
  Lemma clamp_point_max mn mx lo hi : mx - mn <> 0 -> clamp_point K mx mn (mx - mn) lo hi = hi.
  Proof. intros Hd. unfold clamp_point. field. exact Hd. Qed.

  Lemma clamp_point_mono mn d lo hi : leb 0 d = true -> d <> 0 -> leb lo hi = true ->
    mono (fun x => clamp_point K x mn d lo hi).
  Proof.
    intros Hd Hn Hlh a b Hab. unfold clamp_point.
    apply ladd. apply lmul.
    - pose proof (leb_sub_const _ _ lo Hlh) as E. replace (lo - lo) with (0 : K) in E by ring. exact E.
    - apply leb_div; [exact Hd | exact Hn |]. apply leb_sub_const. exact Hab.
  Qed.

  Lemma range_nonneg l : l <> [] -> leb 0 (lmax K leb l - lmin K leb l) = true.
  Proof.
    intros H. pose proof (leb_sub_const _ _ (lmin K leb l) (lmax_ge l _ (lmin_in l H))) as E.
    replace (lmin K leb l - lmin K leb l) with (0 : K) in E by ring. exact E.
  Qed.

  (* the clamped field attains both limits: the affine map is monotone, so it carries min to min and max to max *)
  Lemma clamp_extrema lo hi l : lmax K leb l <> lmin K leb l -> leb lo hi = true ->
    lmin K leb (clamp K leb lo hi l) = lo /\ lmax K leb (clamp K leb lo hi l) = hi.
  Proof.
    intros Hne Hlh. assert (Hl : l <> []) by (intro E; subst; apply Hne; reflexivity).
    assert (Hd : lmax K leb l - lmin K leb l <> 0) by (intro E; apply Hne; apply (fsub_eq0 F); exact E).
    pose proof (clamp_point_mono (lmin K leb l) _ lo hi (range_nonneg l Hl) Hd Hlh) as Hm.
    rewrite clamp_formula, lmin_mono, lmax_mono by assumption.
    split; [apply clamp_point_min | apply clamp_point_max]; exact Hd.
  Qed.

  Lemma clamp_length lo hi l : length (clamp K leb lo hi l) = length l.
  Proof. unfold clamp. rewrite !map_length. reflexivity. Qed.
End Ordered.

Definition Qc_leb (x y : Qc) : bool := Qle_bool (this x) (this y).

Lemma Qc_leb_iff x y : Qc_leb x y = true <-> (x <= y)%Qc.
Proof. unfold Qc_leb, Qcle. apply Qle_bool_iff. Qed.

Lemma Qc_ordered : OrderedF QcField Qc_leb.
Proof.
  constructor; cbn; intros.
  - rewrite !Qc_leb_iff. destruct (Qclt_le_dec a b) as [H|H]; [left; apply Qclt_le_weak; exact H | right; exact H].
  - rewrite Qc_leb_iff in *. eapply Qcle_trans; eassumption.
  - rewrite Qc_leb_iff in *. apply Qcle_antisym; assumption.
  - rewrite Qc_leb_iff in *. apply Qcplus_le_compat; [assumption | apply Qcle_refl].
  - rewrite Qc_leb_iff in *. apply Qcmult_le_compat_r; assumption.
Qed.
