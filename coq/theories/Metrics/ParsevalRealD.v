(* Parseval for REAL fields in every dimension, on the stored half spectrum: the transform of a real field is Hermitian, U(-k) = conj U(k), so the
   stored half (every leading-axis index, last-axis index 0..n/2, multiplicity 1 on the self-conjugate last-axis wavenumbers 0 and n/2 (n even),
   2 otherwise) carries the full sum |U|^2 = n^D sum u^2.  This is the weighting N^D / scaling_recon of the metrics and spectra (C16, C17, C11);
   in one dimension it is the model's own identity fourier_agg = spatial_agg. *)
From Coq Require Import ZArith Bool Field List Lia Permutation.
From EXV Require Import Base.Scalar Base.FieldLemmas Base.Cplx DFT.DFT1 Layout.Freq IC.Normalize DFT.DFTD Metrics.Metrics Metrics.MetricsProofs.
Import ListNotations.
Local Open Scope fld_scope.

Lemma flat_map_singleton {A B} (f : A -> B) (l : list A) : flat_map (fun j => [f j]) l = map f l.
Proof. induction l as [|a l IH]; cbn; [reflexivity | rewrite IH; reflexivity]. Qed.

Lemma Zeven_of_nat m : Z.even (Z.of_nat m) = Nat.even m.
Proof.
  apply eq_true_iff_eq. rewrite Z.even_spec, Nat.even_spec. split.
  - intros [q Hq]. exists (Z.to_nat q). lia.
  - intros [q Hq]. exists (Z.of_nat q). lia.
Qed.

Lemma half_indices_1d n : half_indices 1 (Z.of_nat n) = map (fun k => [Z.of_nat k]) (seq 0 (n / 2 + 1)).
Proof.
  unfold half_indices, wavenumber_shape. cbn [Nat.sub repeat app idx_grid map].
  rewrite (flat_map_singleton (fun j => [j])). unfold zrange0. rewrite map_map.
  replace (Z.to_nat (Z.of_nat n / 2 + 1)) with (n / 2 + 1)%nat; [reflexivity|].
  change 2%Z with (Z.of_nat 2). rewrite <- Nat2Z.inj_div. lia.
Qed.

Lemma axis_plain_nat n k : axis_plain (Z.of_nat n) (Z.of_nat k) true = (k =? 0)%nat || (Nat.even n && (k =? n / 2)%nat).
Proof.
  unfold axis_plain. rewrite Zeven_of_nat. f_equal; [|f_equal].
  - destruct (Z.eqb_spec (Z.of_nat k) 0), (Nat.eqb_spec k 0); try reflexivity; lia.
  - change 2%Z with (Z.of_nat 2). rewrite <- Nat2Z.inj_div.
    destruct (Z.eqb_spec (Z.of_nat k) (Z.of_nat (n / 2))), (Nat.eqb_spec k (n / 2)); try reflexivity; lia.
Qed.

Section ParsevalRealD.
  Variable F : FieldT.
  Hypothesis FR : FormallyReal F.
  Add Field Ffrd : (fth F).
  Let CF : FieldT := CField FR.
  Variable n : nat.
  Variable w : cx F.
  Hypothesis n_pos : (0 < n)%nat.
  Hypothesis w_n : @fpow CF w n = c1 F.
  Hypothesis w_prim : forall m, (0 < m < n)%nat -> @fpow CF w m <> c1 F.
  Hypothesis w_unit : cmul w (cconj w) = c1 F.

  Definition rdftD (D : nat) (u : list nat -> F) (k : list nat) : cx F := @dftD (COps F) n D w (fun j => cofr (u j)) k.
  Definition negD (k : list nat) : list nat := map (fun b => ((n - b) mod n)%nat) k.
  Lemma rdftD_1 (u : nat -> F) k : rdftD 1 (fun j => u (hd 0%nat j)) [k] = rdft F n w u k.
  Proof. reflexivity. Qed.

  Lemma dft_cconj (G : nat -> cx F) b : @dft (COps F) n (cconj w) (fun a => cconj (G a)) b = cconj (@dft (COps F) n w G b).
  Proof.
    unfold dft, bsum. rewrite (cconj_fsum F), map_map. apply f_equal. apply map_ext. intros j.
    change (@omul (COps F) ?a ?b) with (cmul a b). rewrite (cconj_mul F), (cconj_fpow F). reflexivity.
  Qed.

  Lemma dftD_cconj D (u : list nat -> F) k : @dftD (COps F) n D (cconj w) (fun j => cofr (u j)) k = cconj (rdftD D u k).
  Proof.
    unfold rdftD. revert u k. induction D as [|D IH]; intros u k; cbn [dftD].
    - apply cx_ext; cbn; ring.
    - destruct k as [|b k]; [apply cx_ext; cbn; ring|].
      rewrite <- dft_cconj. unfold dft. apply (bsum_ext CF). intros a _. f_equal. apply IH.
  Qed.

  Lemma rdftD_reflect D (u : list nat -> F) k : Forall (fun b => (b < n)%nat) k -> rdftD D u (negD k) = cconj (rdftD D u k).
  Proof.
    unfold rdftD. revert u k. induction D as [|D IH]; intros u k Hk; cbn [dftD].
    - destruct k; apply cx_ext; cbn; ring.
    - destruct k as [|b k]; cbn [negD map]; [apply cx_ext; cbn; ring|]. inversion Hk as [|? ? Hb Hk']; subst.
      fold (negD k).
      rewrite (dft_ext CF n w _ (fun a => cconj (@dftD (COps F) n D w (fun r => cofr (u (a :: r))) k))) by (intros a _; apply IH; exact Hk').
      rewrite (dft_mod CF n w n_pos w_n).
      rewrite (dft_reflect CF n w (cconj w) w_n w_unit _ b) by lia.
      apply dft_cconj.
  Qed.

  Lemma cnorm2_reflect D (u : list nat -> F) k : Forall (fun b => (b < n)%nat) k -> cnorm2 (rdftD D u (negD k)) = cnorm2 (rdftD D u k).
  Proof. intros Hk. rewrite rdftD_reflect by exact Hk. apply (cnorm2_conj F). Qed.

  Lemma sumD_cofr D (g : list nat -> F) : sumD (COps F) D n (fun k => cofr (g k)) = cofr (sumD F D n g).
  Proof.
    unfold sumD. induction (gridD D n) as [|k l IH]; cbn [map fsum]; [reflexivity|]. rewrite IH. apply cx_ext; cbn; ring.
  Qed.
  Lemma npts_cofr D : npts (COps F) D n = cofr (npts F D n).
  Proof.
    unfold npts. rewrite (C_fz F). apply (cpow_real F).
  Qed.

  Theorem parseval_real_D D (u : list nat -> F) :
    sumD F D n (fun k => cnorm2 (rdftD D u k)) = npts F D n * sumD F D n (fun j => u j * u j).
  Proof.
    pose proof (parseval_bilinear_D CF n w (cconj w) n_pos w_n w_prim w_unit D (fun j => cofr (u j)) (fun j => cofr (u j))) as H.
    rewrite (sumD_ext CF n D _ (fun k => cofr (cnorm2 (rdftD D u k)))) in H.
    2:{ intros k _. change (@dftD CF) with (@dftD (COps F)). rewrite dftD_cconj. change (@omul CF ?a ?b) with (cmul a b).
        fold (rdftD D u k). apply (cmul_cconj F). }
    rewrite (sumD_ext CF n D (fun j => @omul CF (cofr (u j)) (cofr (u j))) (fun j => cofr (u j * u j))) in H.
    2:{ intros j _. apply cx_ext; cbn; ring. }
    change (sumD CF) with (sumD (COps F)) in H. change (npts CF) with (npts (COps F)) in H.
    rewrite !sumD_cofr, npts_cofr in H. apply (f_equal re) in H. cbn [re cofr] in H. rewrite H.
    change (@omul CF ?a ?b) with (cmul a b). cbn [re cmul cofr im]. ring.
  Qed.

  (* folding onto the stored half along the LAST axis *)
  Lemma sumD_snoc D (f : list nat -> F) : sumD F (S D) n f = sumD F D n (fun lead => bsum n (fun b => f (lead ++ [b]))).
  Proof.
    revert f. induction D as [|D IH]; intros f.
    - rewrite (sumD_S F n), !(sumD_0 F n). apply (bsum_ext F). intros a _. rewrite (sumD_0 F n). reflexivity.
    - rewrite (sumD_S F n). rewrite (bsum_ext F n _ (fun a => sumD F D n (fun lead => bsum n (fun b => f (a :: lead ++ [b]))))).
      2:{ intros a _. rewrite IH. reflexivity. }
      rewrite (sumD_S F n). reflexivity.
  Qed.

  Lemma negD_invol k : Forall (fun b => (b < n)%nat) k -> negD (negD k) = k.
  Proof.
    induction 1 as [|b k Hb Hk IH]; cbn [negD map]; [reflexivity|]. fold (negD k). fold (negD (negD k)). rewrite IH. f_equal.
    destruct b as [|b]; [rewrite Nat.sub_0_r, Nat.mod_same, Nat.sub_0_r, Nat.mod_same by lia; reflexivity|].
    rewrite (Nat.mod_small (n - S b)) by lia. replace (n - (n - S b))%nat with (S b) by lia. apply Nat.mod_small. lia.
  Qed.
  Lemma negD_grid k : Forall (fun b => (b < n)%nat) (negD k).
  Proof. unfold negD. apply Forall_forall. intros x Hx. apply in_map_iff in Hx. destruct Hx as (b & <- & _). apply Nat.mod_upper_bound. lia. Qed.

  Lemma grid_negated D : Permutation (map negD (gridD D n)) (gridD D n).
  Proof.
    apply NoDup_Permutation_bis.
    - apply NoDup_map_in; [|apply (NoDup_gridD n)]. intros x y Hx Hy E. apply (in_gridD_iff n n_pos) in Hx, Hy. unfold in_grid in Hx, Hy.
      rewrite <- (negD_invol x), <- (negD_invol y), E by tauto. reflexivity.
    - rewrite map_length. lia.
    - intros x Hx. apply in_map_iff in Hx. destruct Hx as (k & <- & Hk). apply (in_gridD_iff n n_pos) in Hk. unfold in_grid in Hk.
      apply (in_gridD_iff n n_pos). split; [unfold negD; rewrite map_length; tauto | apply negD_grid].
  Qed.

  Lemma sumD_negD D (h : list nat -> F) : sumD F D n (fun k => h (negD k)) = sumD F D n h.
  Proof. unfold sumD. rewrite <- (fsum_perm F h _ _ (grid_negated D)). rewrite map_map. reflexivity. Qed.

  Lemma negD_snoc lead b : negD (lead ++ [b]) = negD lead ++ [((n - b) mod n)%nat].
  Proof. unfold negD. rewrite map_app. reflexivity. Qed.

  Theorem parseval_half_spectrum_D D (u : list nat -> F) :
    sumD F D n (fun lead => bsum (n / 2 + 1) (fun b => half_mult F n b * cnorm2 (rdftD (S D) u (lead ++ [b]))))
    = npts F (S D) n * sumD F (S D) n (fun j => u j * u j).
  Proof.
    rewrite <- parseval_real_D, sumD_snoc, !(sumD_bsum F n).
    rewrite (bsum_fold F n (fun b => sumD F D n (fun lead => cnorm2 (rdftD (S D) u (lead ++ [b])))) n_pos).
    - apply (bsum_ext F). intros b _. apply (sumD_scal F n).
    - intros k Hk. rewrite <- (sumD_negD D (fun lead => cnorm2 (rdftD (S D) u (lead ++ [k])))).
      apply (sumD_ext F n D). intros lead Hl. apply (in_gridD_iff n n_pos) in Hl. destruct Hl as [_ Hl].
      rewrite <- (cnorm2_reflect (S D) u (negD lead ++ [k])).
      + rewrite negD_snoc, (negD_invol lead Hl). rewrite Nat.mod_small by lia. reflexivity.
      + apply Forall_app. split; [apply negD_grid | constructor; [lia | constructor]].
  Qed.

  (* one dimension is the case of no leading axes *)
  Theorem parseval_half_spectrum (u : nat -> F) :
    bsum (n / 2 + 1) (fun k => half_mult F n k * cnorm2 (rdft F n w u k)) = fz (Z.of_nat n) * bsum n (fun j => u j * u j).
  Proof.
    rewrite (bsum_ext F _ _ (fun k => half_mult F n k * cnorm2 (rdftD 1 (fun j => u (hd 0%nat j)) ([] ++ [k]))))
      by (intros k _; cbn [app]; rewrite rdftD_1; reflexivity).
    pose proof (parseval_half_spectrum_D 0 (fun j => u (hd 0%nat j))) as H. rewrite (sumD_0 F n) in H. rewrite H.
    rewrite (sumD_S F n), (bsum_ext F n _ (fun j => u j * u j)) by (intros; apply (sumD_0 F n)). unfold npts. cbn [fpow]. ring.
  Qed.

  Lemma term_1d tau L (u : nat -> F) k :
    term F tau L 1 (Z.of_nat n) None ([Z.of_nat k], rdft F n w u k) = half_mult F n k * cnorm2 (rdft F n w u k) / fz (Z.of_nat n).
  Proof.
    unfold term, mult_of. cbn [fst snd]. rewrite cmul_c1_r.
    assert (E : scaling_recon F 1 (Z.of_nat n) [Z.of_nat k]
                = if axis_plain (Z.of_nat n) (Z.of_nat k) true then fz (Z.of_nat n) else fz (Z.of_nat n) / fz 2).
    { unfold scaling_recon. cbn [seq map fprod Nat.sub Nat.eqb]. unfold axis_scaling.
      change (wn 1 (Z.of_nat n) 0 [Z.of_nat k]) with (Z.of_nat k). ring. }
    rewrite E, axis_plain_nat. unfold half_mult.
    pose proof (n_nz F n n_pos) as Hn.
    assert (H2 : 1 + 1 <> (0 : F)) by exact (two_neq0 F).
    destruct ((k =? 0)%nat || (Nat.even n && (k =? n / 2)%nat)); cbn [fz fpos]; unfold two; field; repeat split; assumption.
  Qed.

  Theorem parseval_metric_1d (root : F -> F) (L tau : F) (u : nat -> F) :
    fourier_agg F root 1 (Z.of_nat n) L tau None None None (map (rdft F n w u) (seq 0 (n / 2 + 1)))
    = spatial_agg F root 1 (Z.of_nat n) L (map u (seq 0 n)).
  Proof.
    rewrite fourier_agg_unfold. unfold spatial_agg. do 2 apply f_equal.
    unfold msum, with_idx. rewrite half_indices_1d, combine_map_both, combine_diag, !map_map. cbn [band_mask fst snd].
    rewrite (fsum_map_ext F _ _ (fun k => oinv (fz (Z.of_nat n)) * (half_mult F n k * cnorm2 (rdft F n w u k)))).
    2:{ intros k _. rewrite term_1d, fdiv_def. ring. }
    rewrite fsum_map_scal. fold (bsum (n / 2 + 1) (fun k => half_mult F n k * cnorm2 (rdft F n w u k))).
    rewrite parseval_half_spectrum. unfold sumsq, bsum. rewrite map_map. unfold sqr. field. exact (n_nz F n n_pos).
  Qed.
End ParsevalRealD.
