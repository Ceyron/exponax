(* Lemmas about the metrics model (Metrics/Metrics.v): the Fourier aggregator is a sum over (axis, order) channels of band-masked weighted sums
   of |c|^2 (fourier_agg_chans), and every law of C16 (Props/C16.v) is a pointwise fact about the mask, the weight or |c|^2 lifted through it. *)
From Coq Require Import ZArith Bool Field Qcanon List Lia.
From EXV Require Import Base.Scalar Base.FieldLemmas Base.Cplx Layout.Freq Layout.FreqProofs DFT.DFT1 Metrics.Metrics.
Import ListNotations.
Local Open Scope fld_scope.

Section ListHelpers.
  Context {A B : Type}.
  Lemma combine_app_eq (l1 l2 : list A) (r1 r2 : list B) : length l1 = length r1 ->
    combine (l1 ++ l2) (r1 ++ r2) = combine l1 r1 ++ combine l2 r2.
  Proof.
    revert r1. induction l1 as [|a l1 IH]; intros [|b r1] H; cbn in *; try discriminate; [reflexivity|].
    apply f_equal. apply IH. lia.
  Qed.
  Lemma combine_diag (l : list A) : combine l l = map (fun x => (x, x)) l.
  Proof. induction l as [|a l IH]; cbn; [reflexivity | rewrite IH; reflexivity]. Qed.
  Lemma combine_swap (l : list A) (r : list B) : combine r l = map (fun p => (snd p, fst p)) (combine l r).
  Proof. revert r. induction l as [|a l IH]; intros [|b r]; cbn; try reflexivity. apply f_equal. apply IH. Qed.
  Lemma combine_map_both {A' B'} (f : A -> A') (g : B -> B') (l : list A) (r : list B) :
    combine (map f l) (map g r) = map (fun p => (f (fst p), g (snd p))) (combine l r).
  Proof. revert r. induction l as [|a l IH]; intros [|b r]; cbn; try reflexivity. apply f_equal. apply IH. Qed.
  Lemma combine_recombine {C} (f : A * B -> C) (l : list A) (r : list B) :
    combine l (map f (combine l r)) = map (fun p => (fst p, f p)) (combine l r).
  Proof. revert r. induction l as [|a l IH]; intros [|b r]; cbn; try reflexivity. apply f_equal. apply IH. Qed.
  Lemma last_cons (a d : A) l : last (a :: l) d = last l a.
  Proof.
    revert a d. induction l as [|b l IH]; intros a d; [reflexivity|].
    change (last (a :: b :: l) d) with (last (b :: l) d). rewrite (IH b d), (IH b a). reflexivity.
  Qed.
  Lemma nth_repeat_lt (a d : A) m c : (c < m)%nat -> nth c (repeat a m) d = a.
  Proof. revert c. induction m as [|m IH]; intros c Hc; [lia|]. destruct c; cbn; [reflexivity | apply IH; lia]. Qed.
End ListHelpers.

Section Bands.
  Local Open Scope Z_scope.

  Definition kinf (k : list Z) : Z := fold_right Z.max 0 (map Z.abs k).

  Lemma kinf_nonneg k : 0 <= kinf k.
  Proof. induction k as [|a k IH]; cbn; lia. Qed.

  Lemma kinf_le_iff ks c : kinf ks <= c <-> 0 <= c /\ Forall (fun k => Z.abs k <= c) ks.
  Proof.
    induction ks as [|a ks IH]; cbn [kinf map fold_right]; [split; [intros H; split; [exact H | constructor] | tauto]|].
    fold (kinf ks). rewrite Forall_cons_iff, Z.max_lub_iff, IH. tauto.
  Qed.

  Lemma low_pass_iff D N c idx : (1 <= D)%nat ->
    (low_pass_axis D N c idx = true <-> kinf (wnvec D N idx) <= c).
  Proof.
    intros HD. rewrite low_pass_axis_spec, kinf_le_iff, Forall_forall. split; [|tauto].
    (* the vector is not empty, so the cutoff is non-negative *)
    intros H. split; [|exact H]. destruct D as [|D]; [lia|]. specialize (H (wn (S D) N 0 idx) (or_introl eq_refl)). lia.
  Qed.

  Definition band_lo (low : option Z) : Z := match low with Some l => l | None => 0 end.
  Definition band_hi (N : Z) (high : option Z) : Z := match high with Some h => h | None => N / 2 + 1 end.

  Lemma band_mask_box D N low high idx : (1 <= D)%nat -> (low <> None \/ high <> None) ->
    (band_mask D N low high idx = true <-> band_lo low <= kinf (wnvec D N idx) <= band_hi N high).
  Proof.
    intros HD Hopt.
    assert (E : band_mask D N low high idx
                = negb (low_pass_axis D N (band_lo low - 1) idx) && low_pass_axis D N (band_hi N high) idx).
    { destruct low, high; cbn; try reflexivity. destruct Hopt; congruence. }
    rewrite E, andb_true_iff, negb_true_iff, <- not_true_iff_false, !(low_pass_iff D N _ idx HD). lia.
  Qed.

  Lemma band_mask_box_bool D N lo hi idx : (1 <= D)%nat ->
    band_mask D N (Some lo) (Some hi) idx = (lo <=? kinf (wnvec D N idx)) && (kinf (wnvec D N idx) <=? hi).
  Proof.
    intros HD. apply eq_true_iff_eq. rewrite band_mask_box by (auto; left; congruence).
    cbn [band_lo band_hi]. rewrite andb_true_iff, !Z.leb_le. reflexivity.
  Qed.

  Lemma band_split D N lo mid hi idx : (1 <= D)%nat -> lo <= mid + 1 -> mid <= hi ->
    let a := band_mask D N (Some lo) (Some mid) idx in
    let b := band_mask D N (Some (mid + 1)) (Some hi) idx in
    band_mask D N (Some lo) (Some hi) idx = a || b /\ a && b = false.
  Proof.
    intros HD H1 H2. cbn zeta. rewrite !band_mask_box_bool by exact HD.
    set (k := kinf (wnvec D N idx)).
    destruct (Z.leb_spec k mid), (Z.leb_spec (mid + 1) k); try lia;
      destruct (Z.leb_spec lo k), (Z.leb_spec k hi); cbn; split; try reflexivity; lia.
  Qed.
End Bands.

Section StoredIndices.
  Local Open Scope Z_scope.

  Lemma in_zrange0 j n : In j (zrange0 n) <-> 0 <= j < n.
  Proof.
    unfold zrange0. rewrite in_map_iff. split.
    - intros [i [<- Hi]]. apply in_seq in Hi. lia.
    - intros H. exists (Z.to_nat j). split; [lia | apply in_seq; lia].
  Qed.

  Lemma in_idx_grid lens idx : In idx (idx_grid lens) ->
    length idx = length lens /\ forall c, (c < length lens)%nat -> 0 <= nth c idx 0 < nth c lens 0.
  Proof.
    revert idx. induction lens as [|n r IH]; intros idx H; cbn [idx_grid] in H.
    - destruct H as [<-|[]]. split; [reflexivity | cbn; lia].
    - apply in_flat_map in H. destruct H as [j [Hj H]]. apply in_map_iff in H. destruct H as [t [<- Ht]].
      apply in_zrange0 in Hj. destruct (IH t Ht) as [Hl Hr]. split; [cbn; lia|].
      intros [|c] Hc; cbn [nth]; [lia | apply Hr; cbn in Hc; lia].
  Qed.

  Lemma stored_kinf D N idx : (1 <= D)%nat -> 0 < N -> In idx (half_indices D N) -> kinf (wnvec D N idx) <= N / 2.
  Proof.
    intros HD HN Hin. apply in_idx_grid in Hin. destruct Hin as [_ Hr].
    assert (Hlen : length (wavenumber_shape D N) = D).
    { unfold wavenumber_shape. rewrite app_length, repeat_length. cbn. lia. }
    rewrite Hlen in Hr.
    assert (HN2 : 0 <= N / 2) by (apply Z.div_pos; [lia | reflexivity]).
    apply kinf_le_iff. split; [exact HN2|]. apply Forall_forall. intros k Hk. unfold wnvec in Hk. apply in_map_iff in Hk.
    destruct Hk as [c [<- Hc]]. apply in_seq in Hc. specialize (Hr c (proj2 Hc)).
    unfold wn, wavenumber, mesh_axis, wn_1d, rfft_component. cbn [andb].
    unfold wavenumber_shape in Hr.
    destruct (Nat.eqb_spec c (D - 1)) as [E|E].
    - subst c. rewrite app_nth2 in Hr by (rewrite repeat_length; apply le_n). rewrite repeat_length, Nat.sub_diag in Hr. cbn [nth] in Hr.
      unfold rfftfreq. lia.
    - assert (Hc' : (c < D - 1)%nat) by lia. rewrite app_nth1, nth_repeat_lt in Hr by (rewrite ?repeat_length; exact Hc').
      pose proof (proj1 (band_iff N _) (fftfreq_range N (nth c idx 0) Hr)). apply le_half. lia.
  Qed.

  Lemma full_band_all D N lo hi idx : (1 <= D)%nat -> 0 < N -> lo <= 0 -> N / 2 <= hi ->
    In idx (half_indices D N) -> band_mask D N (Some lo) (Some hi) idx = true.
  Proof.
    intros HD HN Hlo Hhi Hin. apply band_mask_box; [exact HD | left; congruence|].
    cbn [band_lo band_hi]. pose proof (stored_kinf D N idx HD HN Hin). pose proof (kinf_nonneg (wnvec D N idx)). lia.
  Qed.
End StoredIndices.

Section CombLaws.
  Variable F : FieldT.
  Add Field Ffc : (fth F).
  Lemma fdiv0 (x : F) : 0 / x = 0.
  Proof. rewrite fdiv_def. ring. Qed.
  Lemma comb_spatial_zero mode s r : combine_spatial F mode 0 s r = 0.
  Proof. unfold combine_spatial. destruct (mode =? 1)%Z; [apply fdiv0|]. destruct (mode =? 2)%Z; [|reflexivity].
    replace (two * 0) with (0 : F) by (unfold two; ring). apply fdiv0. Qed.
  Lemma comb_fourier_zero mode s r : combine_fourier F mode 0 s r = 0.
  Proof. unfold combine_fourier. destruct (mode =? 1)%Z; [apply fdiv0 | reflexivity]. Qed.
  Lemma comb_spatial_swap mode d s t : (mode =? 1)%Z = false -> combine_spatial F mode d s t = combine_spatial F mode d t s.
  Proof. intros H. unfold combine_spatial. rewrite H. destruct (mode =? 2)%Z; [|reflexivity]. apply f_equal. ring. Qed.
  Lemma comb_spatial_abs (k d s t : F) : combine_spatial F 0 (k * d) (k * s) (k * t) = k * combine_spatial F 0 d s t.
  Proof. reflexivity. Qed.
  Lemma comb_fourier_abs mode (k d s t : F) : (mode =? 1)%Z = false -> combine_fourier F mode (k * d) (k * s) (k * t) = k * combine_fourier F mode d s t.
  Proof. intros H. unfold combine_fourier. rewrite H. reflexivity. Qed.
  Lemma comb_spatial_normalized (k d s t : F) : k <> 0 -> t <> 0 -> combine_spatial F 1 (k * d) (k * s) (k * t) = combine_spatial F 1 d s t.
  Proof. intros Hk Ht. unfold combine_spatial. cbn. field. split; assumption. Qed.
  Lemma comb_spatial_symmetric (k d s t : F) : k <> 0 -> s + t <> 0 -> combine_spatial F 2 (k * d) (k * s) (k * t) = combine_spatial F 2 d s t.
  Proof.
    intros Hk Ht. unfold combine_spatial. cbn. field. split; [exact Ht|].
    replace (k * s + k * t) with (k * (s + t)) by ring. apply (fmul_neq0 F); assumption.
  Qed.
  Lemma comb_fourier_normalized (k d s t : F) : k <> 0 -> t <> 0 -> combine_fourier F 1 (k * d) (k * s) (k * t) = combine_fourier F 1 d s t.
  Proof. exact (comb_spatial_normalized k d s t). Qed.
End CombLaws.

Section NormGeneric.
  Variable F : FieldT.
  Variable X : Type.
  Variable agg : X -> F.
  Variable sub : X -> X -> X.

  Lemma norm_gen_app comb raises mode (u1 u2 r1 r2 : list X) : length u1 = length r1 ->
    norm_gen F agg sub comb raises mode (u1 ++ u2) (Some (r1 ++ r2))
    = oadd2 F (norm_gen F agg sub comb raises mode u1 (Some r1)) (norm_gen F agg sub comb raises mode u2 (Some r2)).
  Proof.
    intros Hl. unfold norm_gen, oadd2. destruct raises; [reflexivity|].
    rewrite (combine_app_eq _ _ _ _ Hl), map_app, fsum_app. reflexivity.
  Qed.
  Lemma norm_gen_app_noref comb raises mode (u1 u2 : list X) :
    norm_gen F agg sub comb raises mode (u1 ++ u2) None
    = oadd2 F (norm_gen F agg sub comb raises mode u1 None) (norm_gen F agg sub comb raises mode u2 None).
  Proof. unfold norm_gen, oadd2. destruct raises; [reflexivity|]. rewrite map_app, fsum_app. reflexivity. Qed.

  Lemma norm_gen_identical comb mode (u : list X) :
    (forall x, agg (sub x x) = 0) -> (forall s r, comb mode 0 s r = 0) ->
    norm_gen F agg sub comb false mode u (Some u) = Some 0.
  Proof.
    intros Hz Hc. unfold norm_gen. apply f_equal. rewrite combine_diag, map_map.
    apply fsum_map_all_zero. intros x _. cbn [fst snd]. rewrite Hz. apply Hc.
  Qed.

  (* the premise on comb holds in the absolute and symmetric modes (comb_spatial_swap) *)
  Lemma norm_gen_symmetric comb mode (u r : list X) :
    (forall x y, agg (sub x y) = agg (sub y x)) -> (forall d s t, comb mode d s t = comb mode d t s) ->
    norm_gen F agg sub comb false mode u (Some r) = norm_gen F agg sub comb false mode r (Some u).
  Proof.
    intros Hs Hc. unfold norm_gen. apply f_equal. rewrite (combine_swap u r), map_map. apply fsum_map_ext. intros p _. cbn [fst snd].
    rewrite Hs, Hc. reflexivity.
  Qed.
  (* homogeneity, when scaling a state multiplies its aggregate by k (k = c^2 for the un-rooted p = 2 quantities, |c| for the rooted ones) *)
  Variable scal : X -> X.
  Variable k : F.
  Hypothesis agg_scal : forall x, agg (scal x) = k * agg x.
  Hypothesis sub_scal : forall x y, sub (scal x) (scal y) = scal (sub x y).

  Lemma norm_gen_scal_absolute comb mode (u r : list X) :
    (forall d s t, comb mode (k * d) (k * s) (k * t) = k * comb mode d s t) ->
    norm_gen F agg sub comb false mode (map scal u) (Some (map scal r))
    = option_map (omul k) (norm_gen F agg sub comb false mode u (Some r)).
  Proof.
    intros Hc. unfold norm_gen. cbn [option_map]. apply f_equal.
    rewrite combine_map_both, map_map, <- fsum_map_scal. apply fsum_map_ext. intros p _. cbn [fst snd].
    rewrite sub_scal, !agg_scal. apply Hc.
  Qed.
  Lemma norm_gen_scal_noref comb mode (u : list X) :
    norm_gen F agg sub comb false mode (map scal u) None = option_map (omul k) (norm_gen F agg sub comb false mode u None).
  Proof.
    unfold norm_gen. cbn [option_map]. apply f_equal. rewrite map_map, <- fsum_map_scal. apply fsum_map_ext. intros x _. apply agg_scal.
  Qed.
  (* scale-free modes: every term is unchanged provided the denominators do not vanish *)
  Lemma norm_gen_scal_invariant comb mode (u r : list X) :
    (forall p, In p (combine u r) ->
       comb mode (k * agg (sub (fst p) (snd p))) (k * agg (fst p)) (k * agg (snd p)) = comb mode (agg (sub (fst p) (snd p))) (agg (fst p)) (agg (snd p))) ->
    norm_gen F agg sub comb false mode (map scal u) (Some (map scal r)) = norm_gen F agg sub comb false mode u (Some r).
  Proof.
    intros Hc. unfold norm_gen. apply f_equal. rewrite combine_map_both, map_map. apply fsum_map_ext. intros p Hp. cbn [fst snd].
    rewrite sub_scal, !agg_scal. apply Hc. exact Hp.
  Qed.
End NormGeneric.

Section RealTransform.
  Variable F : FieldT.
  Variable n : nat.
  Variable w : cx F.
  Definition rdft (u : nat -> F) (k : nat) : cx F := @dft (COps F) n w (fun j => cofr (u j)) k.
End RealTransform.

Record OrderedField (F : FieldT) (le : F -> F -> Prop) : Prop := mkOrderedField {
  ole_refl : forall x, le x x;
  ole_trans : forall x y z, le x y -> le y z -> le x z;
  ole_antisym : forall x y, le x y -> le y x -> x = y;
  ole_total : forall x y, le x y \/ le y x;
  ole_add : forall x y z, le x y -> le (x + z) (y + z);
  ole_mul : forall x y, le 0 x -> le 0 y -> le 0 (x * y) }.
Arguments ole_refl {F le} _. Arguments ole_trans {F le} _. Arguments ole_antisym {F le} _.
Arguments ole_total {F le} _. Arguments ole_add {F le} _. Arguments ole_mul {F le} _.

Section AnyField.
  Variable F : FieldT.
  Add Field Ff : (fth F).

  Section FourierSums.
    Variable root : F -> F.
    Implicit Types s : spectrum F.

    Definition mult_of (tau L : F) (D : nat) (N : Z) (dm : option (nat * nat)) (idx : list Z) : cx F :=
      match dm with None => c1 F | Some (d, m) => cpow F (dop_axis F tau L D N d idx) m end.
    Definition term (tau L : F) (D : nat) (N : Z) (dm : option (nat * nat)) (p : list Z * cx F) : F :=
      cnorm2 (cmul (snd p) (mult_of tau L D N dm (fst p))) / scaling_recon F D N (fst p).
    Definition msum (tau L : F) (D : nat) (N : Z) (low high : option Z) (dm : option (nat * nat)) s : F :=
      fsum (map (fun p => if band_mask D N low high (fst p) then term tau L D N dm p else 0) s).

    Lemma agg_plain D N L tau low high s :
      agg_channel F root D N L (apply_mask F D N low high s) = root (vol F D N L * msum tau L D N low high None s).
    Proof.
      unfold agg_channel, apply_mask, msum. rewrite map_map. do 2 apply f_equal. apply fsum_map_ext. intros p _. cbn [fst snd].
      unfold term, mult_of. rewrite cmul_c1_r. destruct (band_mask D N low high (fst p)); [reflexivity|].
      rewrite cnorm2_c0. apply fdiv0.
    Qed.

    Lemma agg_deriv D N L tau low high d m s :
      agg_channel F root D N L (apply_deriv F tau L D N d m (apply_mask F D N low high s))
      = root (vol F D N L * msum tau L D N low high (Some (d, m)) s).
    Proof.
      unfold agg_channel, apply_deriv, apply_mask, msum. rewrite !map_map. do 2 apply f_equal. apply fsum_map_ext. intros p _. cbn [fst snd].
      unfold term, mult_of. destruct (band_mask D N low high (fst p)); [reflexivity|].
      rewrite cmul_c0_l, cnorm2_c0. apply fdiv0.
    Qed.

    Lemma fourier_agg_unfold D N L tau low high dord spec :
      fourier_agg F root D N L tau low high dord spec
      = match dord with
        | None => root (vol F D N L * msum tau L D N low high None (with_idx F D N spec))
        | Some m => fsum (map (fun d => root (vol F D N L * msum tau L D N low high (Some (d, m)) (with_idx F D N spec))) (seq 0 D))
        end.
    Proof.
      unfold fourier_agg. destruct dord as [m|]; [|apply agg_plain].
      apply fsum_map_ext. intros d _. apply agg_deriv.
    Qed.

    (* the (axis, order) channels over which fourier_agg sums: the plain channel, or one per axis *)
    Definition chans (D : nat) (dord : option nat) : list (option (nat * nat)) :=
      match dord with None => [None] | Some m => map (fun d => Some (d, m)) (seq 0 D) end.

    Lemma fourier_agg_chans D N L tau low high dord spec :
      fourier_agg F root D N L tau low high dord spec
      = fsum (map (fun dm => root (vol F D N L * msum tau L D N low high dm (with_idx F D N spec))) (chans D dord)).
    Proof. rewrite fourier_agg_unfold. destruct dord as [m|]; cbn [chans map fsum]; [rewrite map_map; reflexivity | ring]. Qed.

    Definition ord (dm : option (nat * nat)) : nat := match dm with None => 0%nat | Some (_, m) => m end.
    Lemma msum_band_split tau L D N lo mid hi dm s : (1 <= D)%nat -> (lo <= mid + 1)%Z -> (mid <= hi)%Z ->
      msum tau L D N (Some lo) (Some hi) dm s
      = msum tau L D N (Some lo) (Some mid) dm s + msum tau L D N (Some (mid + 1)%Z) (Some hi) dm s.
    Proof.
      intros HD H1 H2. unfold msum. rewrite <- fsum_map_add. apply fsum_map_ext. intros p _.
      destruct (band_split D N lo mid hi (fst p) HD H1 H2) as [E1 E2]. rewrite E1.
      destruct (band_mask D N (Some lo) (Some mid) (fst p)), (band_mask D N (Some (mid + 1)%Z) (Some hi) (fst p));
        cbn in *; try discriminate; ring.
    Qed.

    Lemma msum_full_band tau L D N lo hi dm spec : (1 <= D)%nat -> (0 < N)%Z -> (lo <= 0)%Z -> (N / 2 <= hi)%Z ->
      msum tau L D N (Some lo) (Some hi) dm (with_idx F D N spec) = msum tau L D N None None dm (with_idx F D N spec).
    Proof.
      intros HD HN Hlo Hhi. unfold msum. apply fsum_map_ext. intros p Hp.
      assert (Hin : In (fst p) (half_indices D N)).
      { destruct p as [i c]. unfold with_idx in Hp. apply in_combine_l in Hp. exact Hp. }
      rewrite (full_band_all D N lo hi (fst p) HD HN Hlo Hhi Hin). reflexivity.
    Qed.
  End FourierSums.

  Section BandAdditivity.
    Notation idF := (idK F).

    Lemma fourier_agg_band_split D N L tau lo mid hi dord spec : (1 <= D)%nat -> (lo <= mid + 1)%Z -> (mid <= hi)%Z ->
      fourier_agg F idF D N L tau (Some lo) (Some hi) dord spec
      = fourier_agg F idF D N L tau (Some lo) (Some mid) dord spec + fourier_agg F idF D N L tau (Some (mid + 1)%Z) (Some hi) dord spec.
    Proof.
      intros HD H1 H2. rewrite !fourier_agg_chans. unfold idK. rewrite <- fsum_map_add. apply fsum_map_ext. intros dm _.
      rewrite (msum_band_split tau L D N lo mid hi _ _ HD H1 H2). ring.
    Qed.

    Fixpoint consecutive (lo : Z) (hs : list Z) : list (Z * Z) :=
      match hs with [] => [] | h :: r => (lo, h) :: consecutive (h + 1)%Z r end.
    Fixpoint chain (lo : Z) (hs : list Z) : Prop :=
      match hs with [] => True | h :: r => (lo <= h + 1)%Z /\ chain (h + 1)%Z r end.

    Lemma chain_last hs : forall h, chain (h + 1)%Z hs -> (h <= last hs h)%Z.
    Proof.
      induction hs as [|a r IH]; intros h Hc; [cbn; lia|].
      cbn [chain] in Hc. destruct Hc as [Ha Hc]. rewrite last_cons. specialize (IH a Hc). lia.
    Qed.

    Lemma fourier_agg_band_partition D N L tau dord spec : (1 <= D)%nat ->
      forall hs lo h0, chain lo (h0 :: hs) ->
      fsum (map (fun b => fourier_agg F idF D N L tau (Some (fst b)) (Some (snd b)) dord spec) (consecutive lo (h0 :: hs)))
      = fourier_agg F idF D N L tau (Some lo) (Some (last hs h0)) dord spec.
    Proof.
      intros HD hs. induction hs as [|h1 hs IH]; intros lo h0 Hc.
      - cbn [consecutive map fsum last fst snd]. ring.
      - cbn [chain] in Hc. destruct Hc as [H0 [H1 Hc]].
        change (consecutive lo (h0 :: h1 :: hs)) with ((lo, h0) :: consecutive (h0 + 1)%Z (h1 :: hs)).
        cbn [map fsum fst snd]. rewrite (IH (h0 + 1)%Z h1) by (cbn [chain]; split; assumption).
        rewrite last_cons.
        assert (Hmono : (h0 <= last hs h1)%Z) by (pose proof (chain_last hs h1 Hc); lia).
        symmetry. apply fourier_agg_band_split; [exact HD | exact H0 | exact Hmono].
    Qed.

    Lemma fourier_agg_full_band D N L tau lo hi dord spec : (1 <= D)%nat -> (0 < N)%Z -> (lo <= 0)%Z -> (N / 2 <= hi)%Z ->
      fourier_agg F idF D N L tau (Some lo) (Some hi) dord spec = fourier_agg F idF D N L tau None None dord spec.
    Proof.
      intros HD HN Hlo Hhi. rewrite !fourier_agg_chans. apply fsum_map_ext. intros dm _.
      rewrite (msum_full_band tau L D N lo hi _ spec HD HN Hlo Hhi). reflexivity.
    Qed.
  End BandAdditivity.

  Section Aggregators.
    Variable root : F -> F.
    Notation scalv c := (map (omul c)).
    Notation scals c := (map (cscal c)).

    Lemma sumsq_scal (c : F) u : sumsq F (scalv c u) = c * c * sumsq F u.
    Proof. unfold sumsq. rewrite map_map, <- fsum_map_scal. apply fsum_map_ext. intros x _. unfold sqr. ring. Qed.
    Lemma vsub_scal (c : F) u r : vsub F (scalv c u) (scalv c r) = scalv c (vsub F u r).
    Proof. unfold vsub. rewrite combine_map_both, !map_map. apply map_ext. intros p. cbn. ring. Qed.
    (* u - r = (-1) (r - u) and u - u = 0 u: exchange and identical inputs are the cases c = -1 and c = 0 of homogeneity *)
    Lemma vsub_swap u r : vsub F r u = scalv (- (1)) (vsub F u r).
    Proof. unfold vsub. rewrite (combine_swap u r), !map_map. apply map_ext. intros p. cbn. ring. Qed.
    Lemma vsub_self u : vsub F u u = scalv 0 u.
    Proof. unfold vsub. rewrite combine_diag, map_map. apply map_ext. intros x. cbn. ring. Qed.

    Lemma spatial_agg_scal D N L (c a : F) u : (forall x, root (c * c * x) = a * root x) ->
      spatial_agg F root D N L (scalv c u) = a * spatial_agg F root D N L u.
    Proof.
      intros Hr. unfold spatial_agg. rewrite sumsq_scal, <- Hr. apply f_equal. ring.
    Qed.
    Lemma root_scal_neg1 x : root (- (1) * - (1) * x) = 1 * root x.
    Proof. transitivity (root x); [apply f_equal; ring | ring]. Qed.
    Lemma root_scal_0 x : root 0 = 0 -> root (0 * 0 * x) = 0 * root x.
    Proof. intros H0. transitivity (root 0); [apply f_equal; ring | rewrite H0; ring]. Qed.
    Lemma spatial_agg_sym D N L u r : spatial_agg F root D N L (vsub F u r) = spatial_agg F root D N L (vsub F r u).
    Proof. rewrite (vsub_swap u r), (spatial_agg_scal D N L (- (1)) 1); [ring | exact root_scal_neg1]. Qed.
    Lemma spatial_agg_self D N L u : root 0 = 0 -> spatial_agg F root D N L (vsub F u u) = 0.
    Proof. intros H0. rewrite vsub_self, (spatial_agg_scal D N L 0 0); [ring | intros x; apply root_scal_0, H0]. Qed.

    Lemma vol_scaling D N (L L' : F) : L' <> 0 -> @fz F N <> 0 -> vol F D N L = fpow (L / L') D * vol F D N L'.
    Proof.
      intros HL HN. unfold vol. rewrite <- fpow_mul_base. f_equal. field. split; assumption.
    Qed.
    Lemma spatial_agg_L_scaling D N (L L' : F) u : L' <> 0 -> @fz F N <> 0 ->
      spatial_agg F (idK F) D N L u = fpow (L / L') D * spatial_agg F (idK F) D N L' u.
    Proof. intros HL HN. unfold spatial_agg, idK. rewrite (vol_scaling D N L L' HL HN). ring. Qed.

    Lemma with_idx_map (g : cx F -> cx F) D N spec :
      with_idx F D N (map g spec) = map (fun p => (fst p, g (snd p))) (with_idx F D N spec).
    Proof. pose proof (combine_map_both (fun i => i) g (half_indices D N) spec) as E. rewrite map_id in E. exact E. Qed.

    Lemma term_scal tau L D N dm (c : F) idx z :
      term tau L D N dm (idx, cscal c z) = c * c * term tau L D N dm (idx, z).
    Proof.
      unfold term. cbn [fst snd]. rewrite !cnorm2_cmul. rewrite fdiv_def, (fdiv_def F (cnorm2 z * _)).
      unfold cnorm2 at 1, cscal. cbn [re im]. unfold cnorm2 at 2. ring.
    Qed.
    Lemma msum_scal tau L D N low high dm (c : F) spec :
      msum tau L D N low high dm (with_idx F D N (scals c spec)) = c * c * msum tau L D N low high dm (with_idx F D N spec).
    Proof.
      unfold msum. rewrite with_idx_map, map_map, <- fsum_map_scal. apply fsum_map_ext. intros [idx z] _. cbn [fst snd].
      destruct (band_mask D N low high idx); [apply term_scal | ring].
    Qed.
    Lemma fourier_agg_scal D N L tau low high dord (c a : F) spec : (forall x, root (c * c * x) = a * root x) ->
      fourier_agg F root D N L tau low high dord (scals c spec) = a * fourier_agg F root D N L tau low high dord spec.
    Proof.
      intros Hr. rewrite !fourier_agg_chans, <- fsum_map_scal. apply fsum_map_ext. intros dm _. rewrite msum_scal, <- Hr. apply f_equal. ring.
    Qed.
    Lemma ssub_scal (c : F) U R : ssub F (scals c U) (scals c R) = scals c (ssub F U R).
    Proof. unfold ssub. rewrite combine_map_both, !map_map. apply map_ext. intros p. apply cx_ext; cbn; ring. Qed.
    Lemma ssub_swap U R : ssub F R U = scals (- (1)) (ssub F U R).
    Proof. unfold ssub. rewrite (combine_swap U R), !map_map. apply map_ext. intros p. apply cx_ext; cbn; ring. Qed.
    Lemma ssub_self U : ssub F U U = scals 0 U.
    Proof. unfold ssub. rewrite combine_diag, map_map. apply map_ext. intros z. apply cx_ext; cbn; ring. Qed.

    Lemma fourier_agg_sym D N L tau low high dord U R :
      fourier_agg F root D N L tau low high dord (ssub F U R) = fourier_agg F root D N L tau low high dord (ssub F R U).
    Proof.
      rewrite (ssub_swap U R), (fourier_agg_scal D N L tau low high dord (- (1)) 1); [ring | exact root_scal_neg1].
    Qed.
    Lemma fourier_agg_self D N L tau low high dord U : root 0 = 0 -> fourier_agg F root D N L tau low high dord (ssub F U U) = 0.
    Proof.
      intros H0. rewrite ssub_self, (fourier_agg_scal D N L tau low high dord 0 0); [ring | intros x; apply root_scal_0, H0].
    Qed.

    Lemma cnorm2_dop tau L D N d idx : cnorm2 (dop_axis F tau L D N d idx) = sqr F ((tau / L) * fz (wn D N d idx)).
    Proof. unfold dop_axis, cnorm2, sqr. cbn. ring. Qed.

    Lemma term_L_scaling tau (L L' : F) D N dm p : L <> 0 -> L' <> 0 ->
      term tau L D N dm p = fpow (L' / L) (2 * ord dm) * term tau L' D N dm p.
    Proof.
      intros HL HL'. unfold term. rewrite !cnorm2_cmul.
      assert (E : cnorm2 (mult_of tau L D N dm (fst p)) = fpow (L' / L) (2 * ord dm) * cnorm2 (mult_of tau L' D N dm (fst p))).
      { destruct dm as [[d m]|]; cbn [mult_of ord]; [|rewrite Nat.mul_0_r; cbn [fpow]; ring].
        unfold cpow. rewrite !cnorm2_fpow, !cnorm2_dop, fpow_mul, <- fpow_mul_base. f_equal.
        unfold sqr. cbn [fpow]. field. split; assumption. }
      rewrite E, !fdiv_def. ring.
    Qed.
    Lemma msum_L_scaling tau (L L' : F) D N low high dm s : L <> 0 -> L' <> 0 ->
      msum tau L D N low high dm s = fpow (L' / L) (2 * ord dm) * msum tau L' D N low high dm s.
    Proof.
      intros HL HL'. unfold msum. rewrite <- fsum_map_scal. apply fsum_map_ext. intros p _.
      destruct (band_mask D N low high (fst p)); [apply term_L_scaling; assumption | ring].
    Qed.

    Lemma fourier_agg_L_scaling D N (L L' : F) tau low high dord spec : L <> 0 -> L' <> 0 -> @fz F N <> 0 ->
      fourier_agg F (idK F) D N L tau low high dord spec
      = fpow (L / L') D * fpow (L' / L) (2 * match dord with None => 0 | Some m => m end) * fourier_agg F (idK F) D N L' tau low high dord spec.
    Proof.
      intros HL HL' HN. rewrite !fourier_agg_chans. unfold idK. rewrite <- fsum_map_scal. apply fsum_map_ext. intros dm Hdm.
      assert (E : ord dm = match dord with None => 0%nat | Some m => m end).
      { destruct dord as [m|]; cbn [chans] in Hdm; [|destruct Hdm as [<-|[]]; reflexivity].
        apply in_map_iff in Hdm. destruct Hdm as (d & <- & _). reflexivity. }
      rewrite (msum_L_scaling tau L L' D N low high dm _ HL HL'), (vol_scaling D N L L' HL' HN), E. ring.
    Qed.

    Definition deriv_spec (tau L : F) (D : nat) (N : Z) (d : nat) (spec : list (cx F)) : list (cx F) :=
      map (fun p => cmul (snd p) (dop_axis F tau L D N d (fst p))) (with_idx F D N spec).

    Lemma cpow_1 (z : cx F) : cpow F z 1 = z.
    Proof. exact (cmul_c1_r F z). Qed.

    Lemma msum_deriv_spec tau L D N low high d spec :
      msum tau L D N low high None (with_idx F D N (deriv_spec tau L D N d spec))
      = msum tau L D N low high (Some (d, 1%nat)) (with_idx F D N spec).
    Proof.
      unfold msum, deriv_spec, with_idx. rewrite combine_recombine, map_map.
      apply fsum_map_ext. intros p _. cbn [fst snd].
      destruct (band_mask D N low high (fst p)); [|reflexivity].
      unfold term, mult_of. cbn [fst snd]. rewrite cmul_c1_r, cpow_1. reflexivity.
    Qed.

    Lemma fourier_agg_sobolev D N L tau low high spec :
      fourier_agg F root D N L tau low high (Some 1%nat) spec
      = fsum (map (fun d => fourier_agg F root D N L tau low high None (deriv_spec tau L D N d spec)) (seq 0 D)).
    Proof.
      rewrite fourier_agg_unfold. apply fsum_map_ext. intros d _. rewrite fourier_agg_unfold, msum_deriv_spec. reflexivity.
    Qed.

    (* closed form of the un-rooted H1 aggregate: weights (1 + sum_d (2 pi k_d / L)^2) *)
    Definition kappa2 (tau L : F) (D : nat) (N : Z) (idx : list Z) : F :=
      fsum (map (fun d => sqr F ((tau / L) * fz (wn D N d idx))) (seq 0 D)).

    Lemma term_deriv1 tau L D N d p :
      term tau L D N (Some (d, 1%nat)) p = sqr F ((tau / L) * fz (wn D N d (fst p))) * term tau L D N None p.
    Proof.
      unfold term, mult_of. rewrite cmul_c1_r, cpow_1, cnorm2_cmul, cnorm2_dop, !fdiv_def. ring.
    Qed.

    Lemma msum_deriv1 tau L D N low high s :
      fsum (map (fun d => msum tau L D N low high (Some (d, 1%nat)) s) (seq 0 D))
      = fsum (map (fun p => if band_mask D N low high (fst p) then kappa2 tau L D N (fst p) * term tau L D N None p else 0) s).
    Proof.
      unfold msum. rewrite fsum_map_swap. apply fsum_map_ext. intros p _. destruct (band_mask D N low high (fst p)); [|apply fsum_map_zero].
      unfold kappa2. rewrite <- fsum_map_scal_r. apply fsum_map_ext. intros d _. apply term_deriv1.
    Qed.

    Lemma H1_closed_form D N L tau low high spec :
      fourier_agg F (idK F) D N L tau low high None spec + fourier_agg F (idK F) D N L tau low high (Some 1%nat) spec
      = vol F D N L * fsum (map (fun p => if band_mask D N low high (fst p)
                                          then (1 + kappa2 tau L D N (fst p)) * term tau L D N None p else 0) (with_idx F D N spec)).
    Proof.
      rewrite !fourier_agg_unfold. unfold idK. rewrite fsum_map_scal, msum_deriv1. unfold msum.
      rewrite <- !fsum_map_scal, <- fsum_map_add. apply fsum_map_ext. intros p _. cbn beta. destruct (band_mask D N low high (fst p)); ring.
    Qed.
  End Aggregators.

  (* Sums that are symmetric under k -> n - k fold onto the half range with the multiplicities 1 (k = 0, and k = n/2 when n is even) and 2: the
     weights with which the stored half spectrum of a real field carries the full Parseval sum (Metrics/ParsevalRealD.v). *)
  Section Folding.
    Definition half_mult (n k : nat) : F := if (k =? 0)%nat || (Nat.even n && (k =? n / 2)%nat) then 1 else two.

    Lemma half_mult_S n i : half_mult n (S i) = if Nat.even n && (S i =? n / 2)%nat then 1 else two.
    Proof. reflexivity. Qed.

    Lemma bsum_reflect n a (g : nat -> F) : (0 < a <= n)%nat -> (forall k, (0 < k < n)%nat -> g (n - k)%nat = g k) ->
      bsum n g = bsum a g + bsum (n - a) (fun i => g (S i)).
    Proof.
      intros Ha Hsym. rewrite (bsum_split F n a g) by lia. apply f_equal. rewrite (bsum_rev F (n - a)).
      apply (bsum_ext F). intros i Hi. rewrite <- (Hsym (S i)) by lia. apply f_equal. lia.
    Qed.

    Lemma bsum_fold n (g : nat -> F) : (0 < n)%nat -> (forall k, (0 < k < n)%nat -> g (n - k)%nat = g k) ->
      bsum n g = bsum (n / 2 + 1) (fun k => half_mult n k * g k).
    Proof.
      intros Hn Hsym. assert (Hh : (0 < S (n / 2) <= n)%nat) by (pose proof (Nat.div_lt n 2); lia).
      rewrite Nat.add_1_r, (bsum_reflect n (S (n / 2)) g Hh Hsym), !(bsum_S_first F). change (half_mult n 0) with (1 : F). clear Hh.
      destruct (Nat.Even_or_Odd n) as [[q Hq]|[q Hq]].
      - (* n = 2q, q > 0: the modes 1..q-1 count twice, the Nyquist mode q is its own mirror image *)
        assert (Hh : (n / 2 = q)%nat) by (subst n; rewrite Nat.mul_comm; apply Nat.div_mul; discriminate).
        assert (He : Nat.even n = true) by (apply Nat.even_spec; exists q; exact Hq).
        rewrite Hh. destruct q as [|q]; [lia|]. replace (n - S (S q))%nat with q by lia. rewrite !(bsum_S F).
        rewrite (bsum_ext F q (fun i => half_mult n (S i) * g (S i)) (fun i => two * g (S i))).
        2:{ intros i Hi. rewrite half_mult_S, He, Hh. destruct (Nat.eqb_spec (S i) (S q)); [lia | reflexivity]. }
        rewrite (bsum_scal F), half_mult_S, He, Hh, Nat.eqb_refl. unfold two. cbn [andb]. ring.
      - (* n = 2q + 1: the modes 1..q count twice *)
        assert (Hh : (n / 2 = q)%nat) by (symmetry; apply (Nat.div_unique n 2 q 1); [apply Nat.lt_1_2 | exact Hq]).
        assert (He : Nat.even n = false) by (subst n; rewrite Nat.add_comm, Nat.even_add_mul_2; reflexivity).
        rewrite Hh. replace (n - S q)%nat with q by lia.
        rewrite (bsum_ext F q (fun i => half_mult n (S i) * g (S i)) (fun i => two * g (S i))).
        2:{ intros i Hi. rewrite half_mult_S, He. reflexivity. }
        rewrite (bsum_scal F). unfold two. ring.
    Qed.
  End Folding.

  Section Ordered.
    Variable le : F -> F -> Prop.
    Hypothesis OF : OrderedField F le.
    Infix "<=" := le : fld_scope.

    Lemma le_sub_nonneg x y : x <= y -> 0 <= y - x.
    Proof. intros H. replace 0 with (x + - x) by ring. replace (y - x) with (y + - x) by ring. apply (ole_add OF). exact H. Qed.
    Lemma sub_nonneg_le x y : 0 <= y - x -> x <= y.
    Proof. intros H. replace x with (0 + x) by ring. replace y with (y - x + x) by ring. apply (ole_add OF). exact H. Qed.
    Lemma opp_nonneg x : x <= 0 -> 0 <= - x.
    Proof. intros H. apply le_sub_nonneg in H. replace (- x) with (0 - x) by ring. exact H. Qed.
    Lemma sq_nonneg x : 0 <= x * x.
    Proof.
      destruct (ole_total OF 0 x) as [H|H]; [apply (ole_mul OF); exact H|].
      replace (x * x) with (- x * - x) by ring. apply (ole_mul OF); apply opp_nonneg; exact H.
    Qed.
    Lemma one_nonneg : 0 <= (1 : F).
    Proof. replace (1 : F) with (1 * 1 : F) by ring. apply sq_nonneg. Qed.
    Lemma add_nonneg a b : 0 <= a -> 0 <= b -> 0 <= a + b.
    Proof.
      intros Ha Hb. apply (ole_trans OF _ (0 + b)); [|apply (ole_add OF); exact Ha].
      replace (0 + b) with b by ring. exact Hb.
    Qed.
    Lemma fsum_map_nonneg {A} (f : A -> F) (l : list A) : (forall a, 0 <= f a) -> 0 <= fsum (map f l).
    Proof. intros H. induction l as [|a l IH]; cbn [map fsum]; [apply (ole_refl OF) | apply add_nonneg; [apply H | exact IH]]. Qed.
    Lemma sumsq_nonneg u : 0 <= sumsq F u.
    Proof. apply fsum_map_nonneg. intros a. apply sq_nonneg. Qed.
    Lemma nonneg_sum_zero a b : 0 <= a -> 0 <= b -> a + b = 0 -> a = 0 /\ b = 0.
    Proof.
      intros Ha Hb H. assert (Ha0 : 0 + a <= b + a) by (apply (ole_add OF); exact Hb).
      replace (0 + a) with a in Ha0 by ring. replace (b + a) with (0 : F) in Ha0 by (rewrite <- H; ring).
      assert (a = 0) by (apply (ole_antisym OF); assumption). split; [assumption|]. subst a. rewrite <- H. ring.
    Qed.
    Lemma sumsq_zero u : sumsq F u = 0 -> Forall (fun x => x = 0) u.
    Proof.
      induction u as [|a u IH]; intros H; [constructor|]. unfold sumsq in H. cbn [map fsum] in H.
      destruct (nonneg_sum_zero _ _ (sq_nonneg a) (sumsq_nonneg u) H) as [H1 H2].
      constructor; [|apply IH; exact H2]. unfold sqr in H1. destruct (fmul_eq0 F _ _ H1); assumption.
    Qed.
    (* Cauchy-Schwarz by induction: one more pair (a, b) raises the defect |u|^2 |v|^2 - (u . v)^2 by the sum of the squares (a v_i - u_i b)^2 *)
    Lemma lagrange_row a b u v : length u = length v ->
      fsum (map (fun q => (a * snd q - fst q * b) * (a * snd q - fst q * b)) (combine u v))
      = a * a * sumsq F v + b * b * sumsq F u - (a * b + a * b) * dot F u v.
    Proof.
      unfold sumsq, dot, sqr. revert v. induction u as [|x u IH]; intros [|y v] H; cbn in *; try discriminate; [ring|].
      rewrite (IH v) by lia. ring.
    Qed.

    Theorem cauchy_schwarz u v : length u = length v -> sqr F (dot F u v) <= sumsq F u * sumsq F v.
    Proof.
      revert v. induction u as [|a u IH]; intros [|b v] H; try discriminate H; [apply (ole_refl OF)|].
      injection H as H. apply sub_nonneg_le.
      replace (sumsq F (a :: u) * sumsq F (b :: v) - sqr F (dot F (a :: u) (b :: v)))
        with (sumsq F u * sumsq F v - sqr F (dot F u v) + fsum (map (fun q => (a * snd q - fst q * b) * (a * snd q - fst q * b)) (combine u v))).
      - apply add_nonneg; [apply le_sub_nonneg, IH, H | apply fsum_map_nonneg; intros q; apply sq_nonneg].
      - rewrite (lagrange_row a b u v H). unfold sumsq, dot, sqr. cbn [map combine fsum fst snd]. ring.
    Qed.

    Lemma dot_scal (al : F) u : dot F u (map (omul al) u) = al * sumsq F u.
    Proof. unfold dot, sumsq, sqr. induction u as [|a u IH]; cbn [map combine fsum fst snd]; [ring | rewrite IH; ring]. Qed.
    Theorem cauchy_schwarz_equality (al : F) u :
      sqr F (dot F u (map (omul al) u)) = sumsq F u * sumsq F (map (omul al) u).
    Proof. rewrite dot_scal, (sumsq_scal al u). unfold sqr. ring. Qed.

    (* 1 / x = x (1 / x)^2 *)
    Lemma inv_nonneg x : 0 <= x -> x <> 0 -> 0 <= oinv x.
    Proof.
      intros Hx Hn. replace (oinv x) with (x * (oinv x * oinv x)) by (field; exact Hn).
      apply (ole_mul OF); [exact Hx | apply sq_nonneg].
    Qed.

    Theorem corr2_le_1 u v : length u = length v -> sumsq F u * sumsq F v <> 0 -> corr2_channel F u v <= 1.
    Proof.
      intros Hl Hn. unfold corr2_channel. apply sub_nonneg_le. set (P := sumsq F u * sumsq F v) in *.
      replace (1 - sqr F (dot F u v) / P) with ((P - sqr F (dot F u v)) * oinv P) by (field; exact Hn).
      apply (ole_mul OF).
      - apply le_sub_nonneg. apply cauchy_schwarz. exact Hl.
      - apply inv_nonneg; [|exact Hn]. apply (ole_mul OF); apply sumsq_nonneg.
    Qed.
    Theorem corr2_proportional (al : F) u : al <> 0 -> sumsq F u <> 0 -> corr2_channel F u (map (omul al) u) = 1.
    Proof.
      intros Ha Hu. unfold corr2_channel. rewrite cauchy_schwarz_equality. field.
      rewrite (sumsq_scal al u). split; [|exact Hu]. repeat apply (fmul_neq0 F); assumption.
    Qed.

    Lemma sq_le_1 c : c * c <= 1 -> - (1) <= c /\ c <= 1.
    Proof.
      intros H.
      assert (Hpos : forall d, d * d <= 1 -> d <= 1).
      { intros d Hd. destruct (ole_total OF d 1) as [H1|H1]; [exact H1|].
        apply (ole_trans OF _ (d * d)); [|exact Hd]. apply sub_nonneg_le.
        replace (d * d - d) with (d * (d - 1)) by ring. apply (ole_mul OF).
        - apply (ole_trans OF _ 1); [apply one_nonneg | exact H1].
        - apply le_sub_nonneg in H1. exact H1. }
      split; [|apply Hpos; exact H].
      assert (Hm : - c <= 1) by (apply Hpos; replace (- c * - c) with (c * c) by ring; exact H).
      apply sub_nonneg_le. apply le_sub_nonneg in Hm. replace (c - - (1)) with (1 - - c) by ring. exact Hm.
    Qed.

    (* the correlation of the implementation divides by the norms: its square is corr2 when [root] is a square root of the two sums *)
    Variable root : F -> F.
    Lemma corr_channel_eq u v : corr_channel F root u v = dot F u v * oinv (root (sumsq F u)) * oinv (root (sumsq F v)).
    Proof.
      unfold corr_channel, dot. set (nu := root (sumsq F u)). set (nv := root (sumsq F v)).
      rewrite combine_map_both, map_map.
      transitivity (fsum (map (fun p => oinv nu * oinv nv * (fst p * snd p)) (combine u v))).
      - apply fsum_map_ext. intros p _. cbn [fst snd]. rewrite !fdiv_def. ring.
      - rewrite fsum_map_scal. ring.
    Qed.
    Theorem corr_channel_sq u v :
      let nu := root (sumsq F u) in let nv := root (sumsq F v) in
      nu * nu = sumsq F u -> nv * nv = sumsq F v -> nu <> 0 -> nv <> 0 ->
      sqr F (corr_channel F root u v) = corr2_channel F u v.
    Proof.
      intros nu nv H1 H2 Hn1 Hn2. rewrite corr_channel_eq. fold nu nv. clearbody nu nv.
      unfold corr2_channel. rewrite <- H1, <- H2. unfold sqr. field. split; assumption.
    Qed.
    Theorem corr_channel_bounds u v : length u = length v ->
      let nu := root (sumsq F u) in let nv := root (sumsq F v) in
      nu * nu = sumsq F u -> nv * nv = sumsq F v -> nu <> 0 -> nv <> 0 ->
      - (1) <= corr_channel F root u v /\ corr_channel F root u v <= 1.
    Proof.
      cbn zeta. intros Hl H1 H2 Hn1 Hn2. apply sq_le_1.
      change (corr_channel F root u v * corr_channel F root u v) with (sqr F (corr_channel F root u v)).
      rewrite (corr_channel_sq u v H1 H2 Hn1 Hn2). apply corr2_le_1; [exact Hl|].
      rewrite <- H1, <- H2. repeat apply (fmul_neq0 F); assumption.
    Qed.

    Lemma sq_inj_nonneg a b : 0 <= a -> 0 <= b -> a * a = b * b -> a = b.
    Proof.
      intros Ha Hb H. assert (E : (a - b) * (a + b) = 0) by (transitivity (a * a - b * b); [ring | rewrite H; ring]).
      destruct (fmul_eq0 F _ _ E) as [E1|E1]; [apply (fsub_eq0 F); exact E1|].
      destruct (nonneg_sum_zero a b Ha Hb E1) as [-> ->]. reflexivity.
    Qed.

    (* a non-negative square root is homogeneous of degree one on non-negative factors *)
    Lemma root_scal c x : (forall y, 0 <= y -> 0 <= root y /\ root y * root y = y) -> 0 <= c -> 0 <= x -> root (c * c * x) = c * root x.
    Proof.
      intros Hroot Hc Hx. destruct (Hroot x Hx) as [H0 H1].
      destruct (Hroot (c * c * x)) as [H2 H3]; [apply (ole_mul OF); [apply sq_nonneg | exact Hx]|].
      apply sq_inj_nonneg; [exact H2 | apply (ole_mul OF); assumption|]. rewrite H3.
      transitivity (c * c * (root x * root x)); [rewrite H1; reflexivity | ring].
    Qed.

    Theorem corr_channel_proportional (al : F) u :
      (forall x, 0 <= x -> 0 <= root x /\ root x * root x = x) -> sumsq F u <> 0 ->
      (0 <= al -> al <> 0 -> corr_channel F root u (map (omul al) u) = 1) /\
      (al <= 0 -> al <> 0 -> corr_channel F root u (map (omul al) u) = - (1)).
    Proof.
      intros Hroot Hu. pose proof (sumsq_nonneg u) as HA. destruct (Hroot _ HA) as [_ Hnu].
      rewrite corr_channel_eq, dot_scal, (sumsq_scal al u). set (nu := root (sumsq F u)) in *.
      assert (Hnun : nu <> 0) by (intro E; apply Hu; rewrite <- Hnu, E; ring).
      split; intros Hs Hne.
      - rewrite (root_scal al _ Hroot Hs HA). fold nu. rewrite <- Hnu. field. split; assumption.
      - replace (al * al) with (- al * - al) by ring. rewrite (root_scal (- al) _ Hroot (opp_nonneg al Hs) HA). fold nu. rewrite <- Hnu. field.
        split; [exact Hnun|]. intro X. apply Hne, (fopp_eq0 F), X.
    Qed.

    Lemma fpow_nonneg x m : 0 <= x -> 0 <= fpow x m.
    Proof. intros H. induction m as [|m IH]; cbn [fpow]; [apply one_nonneg | apply (ole_mul OF); assumption]. Qed.
    Lemma vsub_zero u r : length u = length r -> Forall (fun x => x = 0) (vsub F u r) -> u = r.
    Proof.
      revert r. induction u as [|a u IH]; intros [|b r] Hl H; cbn in *; try discriminate; [reflexivity|].
      inversion H as [|x l H1 H2]; subst. f_equal; [apply (fsub_eq0 F); exact H1 | apply IH; [lia | exact H2]].
    Qed.
    Theorem spatial_agg_positive D N (L : F) u r : 0 <= L / fz N -> L / fz N <> 0 -> length u = length r -> u <> r ->
      0 <= spatial_agg F (idK F) D N L (vsub F u r) /\ spatial_agg F (idK F) D N L (vsub F u r) <> 0.
    Proof.
      intros Hv Hvn Hl Hne. unfold spatial_agg, idK, vol. split.
      - apply (ole_mul OF); [apply fpow_nonneg; exact Hv | apply sumsq_nonneg].
      - intro E. destruct (fmul_eq0 F _ _ E) as [E1|E1]; [exact (fpow_neq0 F _ D Hvn E1)|].
        apply Hne. apply vsub_zero; [exact Hl | apply sumsq_zero; exact E1].
    Qed.
  End Ordered.
End AnyField.

(* the hypotheses are satisfiable: the rationals with their order *)
Lemma Qc_ordered_field : OrderedField QcField Qcle.
Proof.
  constructor.
  - apply Qcle_refl.
  - apply Qcle_trans.
  - apply Qcle_antisym.
  - intros x y. destruct (Qclt_le_dec x y) as [H|H]; [left; apply Qclt_le_weak; exact H | right; exact H].
  - intros x y z H. apply Qcplus_le_compat; [exact H | apply Qcle_refl].
  - intros x y Hx Hy. change (0 <= x)%Qc in Hx. change (0 <= y)%Qc in Hy. change (0 <= x * y)%Qc.
    replace 0%Qc with (0 * y)%Qc by ring. apply Qcmult_le_compat_r; assumption.
Qed.
