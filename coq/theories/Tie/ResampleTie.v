(* C15 tie: what decides the result of map_between_resolutions in the source (Gen/ResampleGen.v, written by
   harness/translate/resample.py: early return, the two oddball-mask conditions, the grid whose mode blocks are copied, the scaling
   modes) IS what the hand-written model Layout/Resample.v uses -- for all grid sizes, both flag values, every wavenumber vector. *)
From Coq Require Import List Bool Zdiv.
From EXV Require Import Base.Scalar Layout.Freq Layout.Resample Gen.ResampleGen.
Local Open Scope Z_scope.

Lemma mask_old_tie n m oz : gen_mbr_mask_old n m oz = (n <? m) && Z.even n && oz.
Proof. unfold gen_mbr_mask_old. rewrite Z.gtb_ltb, Zmod_even. destruct (Z.even n); reflexivity. Qed.

Lemma mask_new_tie n m oz : gen_mbr_mask_new n m oz = (m <? n) && Z.even m && oz.
Proof. exact (mask_old_tie m n oz). Qed.

Theorem resample_decisions_tie n m oz k :
  resample_keeps n m oz k =
    vec_copied (gen_mbr_block_size n m) k
    && (if gen_mbr_mask_old n m oz then odd_ok n k else true)
    && (if gen_mbr_mask_new n m oz then odd_ok m k else true).
Proof. unfold resample_keeps. rewrite mask_old_tie, mask_new_tie. reflexivity. Qed.

Theorem resample_coef_tie (K : Ops) n m oz (old : list Z -> K) k :
  resample_coef K n m oz old k =
    if gen_mbr_identity n m then old k
    else if vec_copied (gen_mbr_block_size n m) k
            && (if gen_mbr_mask_old n m oz then odd_ok n k else true)
            && (if gen_mbr_mask_new n m oz then odd_ok m k else true)
         then omul (fpow (odiv (fz m) (fz n)) (length k)) (old k) else o0.
Proof. unfold resample_coef, gen_mbr_identity. rewrite resample_decisions_tie. reflexivity. Qed.

Lemma resample_scaling_modes_tie : gen_mbr_scaling_mode_old = 10 /\ gen_mbr_scaling_mode_new = 10 /\ mode_denoms 10 = (1, 1).
Proof. repeat split; reflexivity. Qed.
