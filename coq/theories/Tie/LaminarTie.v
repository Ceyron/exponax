(* C12 tie: on the laminar subspace the SOURCE text of the two Kolmogorov nonlinear functions (Gen/NonlinFuns.v, tied in Tie/NonlinTie.v)
   returns exactly its forcing array. *)
From Coq Require Import ZArith List.
From EXV Require Import Base.Scalar Base.FieldLemmas Nonlin.Conv Nonlin.ConvProofs Nonlin.Terms Nonlin.Laminar3D Gen.NonlinFuns Tie.NonlinTie.
Import ListNotations.
Local Open Scope fld_scope.

Section Tie.
  Variable F : FieldT.
  Add Ring Fflam : (fring F).

  Lemma laminar_source_terms (N Kc : Z) (ii s ND b : F) (w u0 inj : field F) (injs : list (field F)) (i : nat) (k : list Z) :
    (0 < N)%Z -> (0 <= Kc)%Z -> (2 * Kc < N)%Z -> ii <> 0 -> s <> 0 ->
    ((forall x, nth 0 x 0%Z <> 0%Z -> w x = 0) ->
       gen_vorticity_conv_kolmogorov F (msk F Kc) (prod2 F 2 N Kc) (prod3 F 2 N Kc) ii s 2 ND b inj w k = inj k)
    /\ ((forall x, nth 0 x 0%Z <> 0%Z \/ nth 2 x 0%Z <> 0%Z -> u0 x = 0) -> (i < 3)%nat -> length k = 3%nat ->
       nth i (gen_projected_conv_kolmogorov F (msk F Kc) (prod2 F 3 N Kc) (prod3 F 3 N Kc) ii s 3 ND injs [u0; fzero F; fzero F]) (fzero F) k
       = nth i injs (fzero F) k).
  Proof.
    intros HN HK H2 Hi Hs. split.
  - intros Hw.
    rewrite vorticity_conv_kolmogorov_tie by (intros; apply prod2_ext; assumption). rewrite vorticity_conv_laminar by exact Hw. ring.
  - intros Hu Hi3 Hl. rewrite projected_conv_kolmogorov_tie by exact Hi3.
    rewrite projected_conv_laminar by assumption. ring.
Qed.
End Tie.
