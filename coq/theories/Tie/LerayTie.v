(* C10 tie: the Leray projection of the term model (Nonlin/Terms.v, the last operation of the projected convection whose source text is
   tied by Tie/NonlinTie.v) is, mode by mode, the leray_mode of Spectral/Operators.v at d = (d_0 k, d_1 k, d_2 k); hence every output of the
   SOURCE text of ProjectedConvection3d is divergence free at every mode with non-zero Laplace symbol, for every input. *)
From Coq Require Import List Ring.
From EXV Require Import Base.Scalar Base.FieldLemmas Spectral.Symbols Spectral.Operators Spectral.OperatorsProofs Nonlin.Conv Nonlin.Terms.
Import ListNotations.
Local Open Scope fld_scope.

Section Tie.
  Variable F : FieldT.
  Add Ring Ffl : (fring F).
  Variables (ii s : F).

  Definition dvec (k : idx) : list F := [dc F ii s 0 k; dc F ii s 1 k; dc F ii s 2 k].

  (* with the pointwise operations of the term model unfolded, channel c of both is u_c + d_c * (- p), p = inv * (d . u), written
     (-1) * p in the term model; lap k is lapm (dvec k) by computation *)
  Lemma leray_at_mode (v0 v1 v2 : field F) (k : idx) :
    map (fun f => f k) (leray F ii s 3 [v0; v1; v2]) = leray_mode F (dvec k) [v0 k; v1 k; v2 k].
  Proof.
    unfold leray, leray_mode, axes, inv_lap_zero, fmulp, fscal, fadd, fsumf, divm.
    change (lapm F (dvec k)) with (lap F ii s 3 k). cbn [seq map2 map fsum dvec].
    set (p := (if oeqb (lap F ii s 3 k) 0 then 0 else 1 / lap F ii s 3 k) * _). replace (- (1) * p) with (- p) by ring. reflexivity.
  Qed.

  Theorem leray_output_divergence_free (vs : list (field F)) (k : idx) : length vs = 3%nat -> lapm F (dvec k) <> 0 ->
    divm F (dvec k) (map (fun i => nth i (leray F ii s 3 vs) (fzero F) k) [0; 1; 2]%nat) = 0.
  Proof.
    destruct vs as [|v0 [|v1 [|v2 [|]]]]; try discriminate. intros _ Hn.
    change (map _ [0; 1; 2]%nat) with (map (fun f => f k) (leray F ii s 3 [v0; v1; v2])). rewrite leray_at_mode.
    apply leray_div_free; [reflexivity | exact Hn].
  Qed.
End Tie.
