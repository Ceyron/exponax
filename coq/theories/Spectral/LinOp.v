(* The documented PDEs of the linear steppers as a deep embedding of constant-coefficient differential operators
   (transcribed from the class docstrings, NOT from the code), their symbols, and the theorems that the hand-written code symbols
   (Spectral/Symbols.v) of Advection, Diffusion, Dispersion, HyperDiffusion and the general linear stepper are the symbols of
   their documented operators, for every number of axes (pde_advection_diffusion is the sum of two of them and has no theorem).
   Symbol calculus: the operator  sum_t c_t prod_c d/dx_c^{alpha_c}  acts on exp(i kappa.x) as multiplication by
   sum_t c_t prod_c (i kappa_c)^{alpha_c}  (this rule for exponentials is the one analytic fact used and is not re-proved). *)
From Coq Require Import ZArith List Lia.
From EXV Require Import Base.Scalar Base.FieldLemmas Spectral.Symbols Spectral.ListLemmas.
Local Open Scope fld_scope.

Section LinOp.
  Variable K : Ops.
  Definition term : Type := (K * list nat)%type.          (* coefficient, multi-index *)
  Definition mono (d : list K) (alpha : list nat) : K := fprod (map2 (fun x a => fpow x a) d alpha).
  Definition symbol_of (P : list term) (d : list K) : K := fsum (map (fun t => fst t * mono d (snd t)) P).

  Definition unit_idx (n c m : nat) : list nat := map (fun j => if Nat.eqb j c then m else O) (seq 0 n).
  Definition add_idx (a b : list nat) : list nat := map2 Nat.add a b.
  Definition axes (n : nat) : list nat := seq 0 n.

  (* u_t = - v . grad u *)
  Definition pde_advection (v : list K) : list term :=
    imap (fun c vc => (- vc, unit_idx (length v) c 1)) v.
  (* u_t = div (A grad u) = sum_ij A_ij d_i d_j u *)
  Definition pde_diffusion (A : list (list K)) : list term :=
    concat (imap (fun i row => imap (fun j aij => (aij, add_idx (unit_idx (length A) i 1) (unit_idx (length A) j 1))) row) A).
  Definition pde_advection_diffusion (v : list K) (A : list (list K)) : list term := pde_advection v ++ pde_diffusion A.
  (* u_t = xi . (grad o grad o grad) u = sum_c xi_c d_c^3 u      (advect_on_diffusion = False)
     u_t = xi . grad (Laplace u)      = sum_c sum_j xi_c d_c d_j^2 u   (True) *)
  Definition pde_dispersion (flag : bool) (xi : list K) : list term :=
    let n := length xi in
    if flag then concat (imap (fun c xc => map (fun j => (xc, add_idx (unit_idx n c 1) (unit_idx n j 2))) (axes n)) xi)
    else imap (fun c xc => (xc, unit_idx n c 3)) xi.
  (* u_t = - mu sum_c d_c^4 u  (False);   u_t = - mu Laplace (Laplace u) = - mu sum_ij d_i^2 d_j^2 u  (True) *)
  Definition pde_hyper_diffusion (flag : bool) (mu : K) (n : nat) : list term :=
    if flag then concat (map (fun i => map (fun j => (- mu, add_idx (unit_idx n i 2) (unit_idx n j 2))) (axes n)) (axes n))
    else map (fun c => (- mu, unit_idx n c 4)) (axes n).
  (* u_t = sum_j a_j (1 . grad^j) u = sum_j a_j sum_c d_c^j u *)
  Definition pde_general (a : list K) (n : nat) : list term :=
    concat (imap (fun j aj => map (fun c => (aj, unit_idx n c j)) (axes n)) a).
End LinOp.

Section LinOpProofs.
  Variable F : FieldT.
  Add Ring Ff : (fring F).

  Lemma symbol_of_concat Ps (d : list F) : symbol_of F (concat Ps) d = fsum (map (fun P => symbol_of F P d) Ps).
  Proof. unfold symbol_of. rewrite concat_map, fsum_concat, map_map. reflexivity. Qed.

  Lemma unit_idx_length n c m : length (unit_idx n c m) = n.
  Proof. unfold unit_idx. rewrite map_length, seq_length. reflexivity. Qed.

  Lemma mono_add_idx (d : list F) a b : length a = length b -> mono F d (add_idx a b) = mono F d a * mono F d b.
  Proof.
    unfold mono, add_idx. revert a b. induction d as [|x d IH]; intros [|i a] [|j b] H; try discriminate H; cbn [map2 fprod]; try ring.
    injection H as H. rewrite (IH _ _ H), fpow_add. ring.
  Qed.

  (* the exponent list of d_c^m picks the c-th entry; past the end it picks nothing, and 1^m = 1 *)
  Lemma mono_unit_from (d : list F) s c m :
    fprod (map2 (fun x a => fpow x a) d (map (fun j => if Nat.eqb j c then m else O) (seq s (length d))))
    = if (c <? s)%nat then 1 else fpow (nth (c - s) d 1) m.
  Proof.
    revert s. induction d as [|x d IH]; intros s; cbn [length seq map map2 fprod].
    - destruct (c <? s)%nat, (c - s)%nat; cbn [nth]; rewrite ?fpow_1; reflexivity.
    - rewrite IH. destruct (Nat.eqb_spec s c), (Nat.ltb_spec c s), (Nat.ltb_spec c (S s)); try lia; cbn [fpow].
      + subst s. rewrite Nat.sub_diag. cbn [nth]. ring.
      + ring.
      + replace (c - s)%nat with (S (c - S s)) by lia. cbn [nth]. ring.
  Qed.

  Lemma mono_unit_idx (d : list F) c m : mono F d (unit_idx (length d) c m) = fpow (nth c d 1) m.
  Proof. unfold mono, unit_idx. rewrite mono_unit_from. cbn [Nat.ltb Nat.leb]. rewrite Nat.sub_0_r. reflexivity. Qed.

  Lemma symbol_of_imap_unit {A} (k : A -> F) m (v : list A) (d : list F) : length v = length d ->
    symbol_of F (imap (fun c x => (k x, unit_idx (length v) c m)) v) d = fsum (map2 (fun x dc => k x * fpow dc m) v d).
  Proof.
    intros H. unfold symbol_of, imap. rewrite map_imap_from, (map2_imap _ v d 1) by lia. f_equal. apply imap_from_ext. intros c x _.
    cbn [fst snd]. rewrite H, mono_unit_idx. reflexivity.
  Qed.

  Lemma symbol_of_axes_unit (k : F) m (d : list F) :
    symbol_of F (map (fun c => (k, unit_idx (length d) c m)) (axes (length d))) d = k * fsum (map (fun x => fpow x m) d).
  Proof.
    unfold symbol_of, axes. rewrite map_map. cbn [fst snd]. rewrite <- fsum_map_scal, <- (map_nth_seq (fun x => k * fpow x m) d 1).
    apply fsum_map_ext. intros c _. rewrite mono_unit_idx. reflexivity.
  Qed.

  Lemma symbol_of_axes_add (k : F) alpha b (d : list F) : length alpha = length d ->
    symbol_of F (map (fun j => (k, add_idx alpha (unit_idx (length d) j b))) (axes (length d))) d
    = k * mono F d alpha * fsum (map (fun x => fpow x b) d).
  Proof.
    intros H. unfold symbol_of, axes. rewrite map_map. cbn [fst snd].
    rewrite <- fsum_map_scal, <- (map_nth_seq (fun x => k * mono F d alpha * fpow x b) d 1).
    apply fsum_map_ext. intros c _. rewrite mono_add_idx, mono_unit_idx by (rewrite unit_idx_length; exact H). ring.
  Qed.

  Lemma advection_is_documented (v d : list F) : length v = length d ->
    sym_advection F v d = symbol_of F (pde_advection F v) d.
  Proof.
    intros H. unfold pde_advection. rewrite (symbol_of_imap_unit (fun x => - x) 1 v d H).
    unfold sym_advection, gip_sym. revert d H. induction v as [|x v IH]; intros [|y d] H; try discriminate H; cbn [map2 fsum]; [ring|].
    injection H as H. rewrite <- (IH d H). ring.
  Qed.

  (* every matrix with one row per entry of d and no row longer than d, symmetric or not *)
  Lemma diffusion_is_documented (A : list (list F)) (d : list F) :
    length A = length d -> Forall (fun r => (length r <= length d)%nat) A ->
    sym_diffusion F A d = symbol_of F (pde_diffusion F A) d.
  Proof.
    intros H HA. unfold pde_diffusion, sym_diffusion, quad_form, imap. rewrite symbol_of_concat, map_imap_from, (map2_imap _ A d 1) by lia.
    f_equal. apply imap_from_ext. intros i r Hr. unfold symbol_of.
    rewrite map_imap_from, (map2_imap _ r d 1) by exact (proj1 (Forall_forall _ A) HA r Hr).
    f_equal. apply imap_from_ext. intros j a _. cbn [fst snd].
    rewrite H, mono_add_idx, !mono_unit_idx by (rewrite !unit_idx_length; reflexivity). cbn [fpow]. ring.
  Qed.

  Lemma dispersion_is_documented (flag : bool) (xi d : list F) : length xi = length d ->
    sym_dispersion F flag xi d = symbol_of F (pde_dispersion F flag xi) d.
  Proof.
    intros H. unfold pde_dispersion, sym_dispersion. destruct flag.
    - unfold imap, gip_sym. rewrite symbol_of_concat, map_imap_from, (map2_imap _ xi d 1), <- (map_id (imap_from _ _ _)) by lia.
      rewrite <- fsum_map_scal_r, map_imap_from. f_equal. apply imap_from_ext. intros c x _.
      rewrite H, symbol_of_axes_add, mono_unit_idx by apply unit_idx_length. reflexivity.
    - exact (eq_sym (symbol_of_imap_unit (fun x => x) 3 xi d H)).
  Qed.

  Lemma hyper_diffusion_is_documented (flag : bool) (mu : F) (d : list F) :
    sym_hyper_diffusion F flag mu d = symbol_of F (pde_hyper_diffusion F flag mu (length d)) d.
  Proof.
    unfold pde_hyper_diffusion, sym_hyper_diffusion. destruct flag.
    - rewrite symbol_of_concat, map_map. transitivity (fsum (map (fun x => - mu * fpow x 2 * laplace_sym F 2 d) d)).
      + rewrite fsum_map_scal_r, fsum_map_scal. reflexivity.
      + rewrite <- (map_nth_seq (fun x => - mu * fpow x 2 * laplace_sym F 2 d) d 1). apply fsum_map_ext. intros c _.
        rewrite symbol_of_axes_add, mono_unit_idx by apply unit_idx_length. reflexivity.
    - symmetry. apply symbol_of_axes_unit.
  Qed.

  Lemma general_is_documented (a d : list F) : poly_sym F a d = symbol_of F (pde_general F a (length d)) d.
  Proof.
    unfold pde_general, poly_sym, imap. rewrite symbol_of_concat, map_imap_from. f_equal. apply imap_from_ext. intros j aj _.
    rewrite symbol_of_axes_unit. apply fsum_map_scal.
  Qed.
End LinOpProofs.
