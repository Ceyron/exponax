(* What the per-mode operators of Spectral/Operators.v do: the Poisson solver solves, Laplace and gradient-inner-product symbols at
   d = i kappa are the analytic ones, the Leray projection is the projection onto divergence-free fields, and make_incompressible
   is the same projection. *)
From Coq Require Import ZArith Field List Lia.
From EXV Require Import Base.Scalar Base.FieldLemmas Spectral.Symbols Spectral.ListLemmas Spectral.Operators.
Local Open Scope fld_scope.

Section OperatorProofs.
  Variable F : FieldT.
  Add Field Ff : (fth F).
  Theorem poisson_solves (lam f : F) :
    (lam <> 0 -> lam * poisson_mode F lam f = - f) /\ (lam = 0 -> poisson_mode F lam f = 0).
  Proof.
    unfold poisson_mode. split; intros H.
    - rewrite (proj2 (feqb_false F lam 0) H). field. exact H.
    - rewrite (proj2 (feqb_ok F lam 0) H). ring.
  Qed.

  Lemma lap2_is_lapm (d : list F) : laplace_sym F 2 d = lapm F d.
  Proof. unfold laplace_sym, lapm. f_equal. apply map_ext. intros x. cbn [fpow]. ring. Qed.

  Section Analytic.
  (* d_c = ii * kappa_c for any ii with ii^2 = -1 *)
  Variable ii : F.
  Hypothesis ii_sq : ii * ii = - (1).
  Definition dk (kap : list F) : list F := map (fun x => ii * x) kap.

  Lemma pow_ii_even (x : F) n : fpow (ii * x) (2 * n) = fpow (- (1)) n * fpow x (2 * n).
  Proof.
    rewrite fpow_mul_base. f_equal. rewrite fpow_mul. f_equal. cbn [fpow]. rewrite <- ii_sq. ring.
  Qed.

  Theorem laplace_symbol n (kap : list F) : (0 < n)%nat ->
    laplace_sym F (2 * n) (dk kap) = fpow (- (1)) n * fsum (map (fun x => fpow x (2 * n)) kap).
  Proof.
    intros Hn. unfold laplace_sym, dk. destruct (2 * n)%nat as [|m] eqn:E; [lia|]. rewrite <- E.
    rewrite map_map. rewrite <- fsum_map_scal. apply fsum_map_ext. intros x _. apply pow_ii_even.
  Qed.

  Theorem gip_symbol n (v kap : list F) :
    gip_sym F v (2 * n + 1) (dk kap) = ii * fpow (- (1)) n * fsum (map2 (fun vc x => vc * fpow x (2 * n + 1)) v kap).
  Proof.
    unfold gip_sym, dk. revert kap. induction v as [|vc v IH]; intros [|x kap]; cbn [map map2 fsum]; [ring..|].
    rewrite IH. rewrite Nat.add_comm. cbn [Nat.add fpow]. rewrite pow_ii_even. ring.
  Qed.

  End Analytic.

  (* the Leray projection adds a multiple p of d to u *)
  Lemma divm_axpy (p : F) (d u : list F) : length u = length d ->
    divm F d (map2 (fun dc uc => uc + dc * p) d u) = divm F d u + lapm F d * p.
  Proof.
    unfold divm, lapm. revert u. induction d as [|x d IH]; intros [|y u] H; try discriminate H; cbn [map map2 fsum]; [ring|].
    injection H as H. rewrite (IH u H). ring.
  Qed.

  Lemma axpy_zero (p : F) (d u : list F) : length u = length d -> p = 0 -> map2 (fun dc uc => uc + dc * p) d u = u.
  Proof.
    intros H ->. revert u H. induction d as [|x d IH]; intros [|y u] H; try discriminate H; cbn [map2]; [reflexivity|].
    injection H as H. rewrite (IH u H). f_equal. ring.
  Qed.

  (* where the Laplace symbol does not vanish: for d = i kappa with real kappa that is every mode but k = 0 (RealSymbols.lap_zero_iff) *)
  Theorem leray_div_free (d u : list F) : length u = length d -> lapm F d <> 0 -> divm F d (leray_mode F d u) = 0.
  Proof.
    intros Hl Hn. unfold leray_mode. rewrite (divm_axpy _ d u Hl), (proj2 (feqb_false F _ 0) Hn). field. exact Hn.
  Qed.

  Theorem leray_mean_mode (d u : list F) : length u = length d -> lapm F d = 0 -> leray_mode F d u = u.
  Proof.
    intros Hl Hz. unfold leray_mode. apply (axpy_zero _ d u Hl). rewrite (proj2 (feqb_ok F _ 0) Hz). ring.
  Qed.

  Theorem leray_fixes_div_free (d u : list F) : length u = length d -> divm F d u = 0 -> leray_mode F d u = u.
  Proof.
    intros Hl Hz. unfold leray_mode. apply (axpy_zero _ d u Hl). rewrite Hz. ring.
  Qed.

  Theorem leray_idempotent (d u : list F) : length u = length d -> leray_mode F d (leray_mode F d u) = leray_mode F d u.
  Proof.
    intros Hl. destruct (feq_dec F (lapm F d) 0) as [Hz|Hn].
    - rewrite (leray_mean_mode d u Hl Hz). apply leray_mean_mode; assumption.
    - apply leray_fixes_div_free; [|apply leray_div_free; assumption].
      unfold leray_mode. apply map2_length. symmetry. exact Hl.
  Qed.

  (* the physical-space routine make_incompressible computes the same projection at every mode, whatever the lengths of d and u:
     where the Laplace symbol does not vanish the two formulas agree term by term, where it does every d_c is 0 by the premise
     (true for d = i*kappa with real kappa: -sum kappa_c^2 = 0 forces kappa = 0 in a formally real field; RealSymbols.lap_zero_real) *)
  Theorem make_incompressible_is_leray (d u : list F) :
    (lapm F d = 0 -> Forall (fun x => x = 0) d) -> make_incompressible_mode F d u = leray_mode F d u.
  Proof.
    intros HR. unfold make_incompressible_mode, leray_mode. apply map2_ext. intros x y Hx. destruct (oeqb (lapm F d) 0) eqn:E.
    - rewrite (proj1 (Forall_forall _ d) (HR (proj1 (feqb_ok F _ 0) E)) x Hx). ring.
    - ring.
  Qed.

  Section Axes23.
  Variable d : list F.
  Hypothesis Hd : (2 <= length d <= 3)%nat.
  Theorem make_incompressible_eq_leray (u : list F) : length u = length d ->
    (lapm F d = 0 -> Forall (fun x => x = 0) d) ->
    make_incompressible_mode F d u = leray_mode F d u.
  Proof using Hd. intros _. apply make_incompressible_is_leray. Qed.
  End Axes23.
End OperatorProofs.
