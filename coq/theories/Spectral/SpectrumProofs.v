From Coq Require Import ZArith List Bool Lia Field.
From EXV Require Import Base.Scalar Base.FieldLemmas Layout.Freq Spectral.Spectrum Nonlin.Conv Nonlin.ConvProofs.

Section Bins.
  Local Open Scope Z_scope.
  Lemma norm2_nonneg k : 0 <= norm2 k.
  Proof. induction k as [|x k IH]; cbn [norm2 fold_right]; [lia | unfold norm2 in IH; nia]. Qed.

  Lemma in_bin_iff b k : 0 <= b ->
    in_bin b k = true <-> ((b = 0 \/ (2 * b - 1) * (2 * b - 1) <= 4 * norm2 k) /\ 4 * norm2 k < (2 * b + 1) * (2 * b + 1)).
  Proof. intros Hb. unfold in_bin. lia. Qed.

  (* the bin of a mode is its rounded norm: b = round(|k|) = floor((isqrt(4 |k|^2) + 1) / 2) *)
  Definition bin_of (k : list Z) : Z := (Z.sqrt (4 * norm2 k) + 1) / 2.

  Lemma bin_of_spec k : 2 * bin_of k - 1 <= Z.sqrt (4 * norm2 k) <= 2 * bin_of k.
  Proof. unfold bin_of. Z.div_mod_to_equations. lia. Qed.

  Lemma in_bin_round b k : 0 <= b -> in_bin b k = true <-> b = bin_of k.
  Proof.
    intros Hb. rewrite in_bin_iff by exact Hb. pose proof (bin_of_spec k). pose proof (norm2_nonneg k).
    pose proof (Z.sqrt_nonneg (4 * norm2 k)).
    rewrite (Z.sqrt_lt_square (4 * norm2 k) (2 * b + 1)) by lia.
    destruct (Z.eq_dec b 0) as [->|Hb0]; [lia|].
    rewrite (Z.sqrt_le_square (4 * norm2 k) (2 * b - 1)) by lia. lia.
  Qed.

  Theorem bins_disjoint b b' k : 0 <= b -> 0 <= b' -> in_bin b k = true -> in_bin b' k = true -> b = b'.
  Proof. intros Hb Hb'. rewrite !in_bin_round by assumption. congruence. Qed.

  Lemma bin_of_nonneg k : 0 <= bin_of k.
  Proof. pose proof (bin_of_spec k). pose proof (Z.sqrt_nonneg (4 * norm2 k)). lia. Qed.

  Lemma bin_of_le_iff M k : 0 <= M -> bin_of k <= M <-> 4 * norm2 k < (2 * M + 1) * (2 * M + 1).
  Proof.
    intros HM. pose proof (bin_of_spec k). pose proof (norm2_nonneg k).
    rewrite (Z.sqrt_lt_square (4 * norm2 k) (2 * M + 1)) by lia. lia.
  Qed.

  Theorem bin_exists N k : 0 <= N -> 4 * norm2 k < (2 * (N / 2) + 1) * (2 * (N / 2) + 1) ->
    exists b, 0 <= b <= N / 2 /\ in_bin b k = true.
  Proof.
    intros HN H. pose proof (bin_of_nonneg k) as H0. exists (bin_of k).
    split; [split; [exact H0 | apply bin_of_le_iff; [apply Z.div_pos; lia | exact H]] | apply in_bin_round; [exact H0 | reflexivity]].
  Qed.

  Theorem bin_outside N b k : 0 <= b <= N / 2 -> (2 * (N / 2) + 1) * (2 * (N / 2) + 1) <= 4 * norm2 k -> in_bin b k = false.
  Proof.
    intros Hb H. apply not_true_iff_false. rewrite in_bin_round by lia. intros ->.
    pose proof (bin_of_le_iff (N / 2) k). lia.
  Qed.

  Lemma odd_square_not_4 a b : 4 * a <> (2 * b + 1) * (2 * b + 1).
  Proof. replace ((2 * b + 1) * (2 * b + 1)) with (4 * (b * b + b) + 1) by ring. lia. Qed.

  Theorem bin_margin b k : 4 * norm2 k <> (2 * b + 1) * (2 * b + 1).
  Proof. apply odd_square_not_4. Qed.
End Bins.

Section Quantities.
  Variable F : FieldT.
  Add Field Ff : (fth F).
  Local Open Scope fld_scope.

  (* the limits of bin b at bin spacing 1, b -+ 1/2, doubled: the integers whose squares in_bin compares with 4 |k|^2 *)
  Lemma doubled_lower (b : Z) : (fz 2 : F) * (fz b - fz 1 / fz 2) = fz (2 * b - 1).
  Proof. rewrite fz_sub, fz_mul. field. exact (fz2_neq0 F). Qed.
  Lemma doubled_upper (b : Z) : (fz 2 : F) * (fz b + fz 1 / fz 2) = fz (2 * b + 1).
  Proof. rewrite fz_add, fz_mul. field. exact (fz2_neq0 F). Qed.

  Variables (N : Z) (ND : F).
  Hypothesis ND_nz : ND <> 0.

  (* amplitude read-off: a cosine a cos(k.x + phi) has |u_hat| = N^D a / 2 at its stored mode (C04), the quantity is a;
     at a self-conjugate last-axis wavenumber (0 or Nyquist) the stored mode carries |u_hat| = N^D * a' and the quantity is a' *)
  Theorem amplitude_of_stored_mode (k : list Z) (a : F) :
    amplitude_q F N ND k (if axis_plain N (last k 0%Z) true then ND * a else ND * a / fz 2) = a.
  Proof. unfold amplitude_q, recon_scale. destruct (axis_plain N (last k 0%Z) true); field; repeat split; first [exact ND_nz | exact (fz2_neq0 F)]. Qed.

  (* the power weights are those of the half-spectrum Parseval identity (Metrics/ParsevalRealD.v): quantity = wgt * |u_hat|^2 / (2 N^2D),
     wgt = 1 for self-conjugate last-axis modes, 2 otherwise *)
  Theorem power_is_parseval_weight (k : list Z) (a : F) :
    power_q F N ND k a = (if axis_plain N (last k 0%Z) true then 1 else fz 2) * (a * a) / (fz 2 * (ND * ND)).
  Proof. unfold power_q, recon_scale. destruct (axis_plain N (last k 0%Z) true); field; repeat split; first [exact ND_nz | exact (fz2_neq0 F)]. Qed.
End Quantities.

Section Total.
  Variable F : FieldT.
  Local Open Scope fld_scope.

  Definition inside (N : Z) (k : list Z) : bool := (4 * norm2 k <? (2 * (N / 2) + 1) * (2 * (N / 2) + 1))%Z.

  Lemma inside_iff N k : (0 <= N)%Z -> inside N k = true <-> (bin_of k <= N / 2)%Z.
  Proof. intros HN. unfold inside. rewrite Z.ltb_lt. symmetry. apply bin_of_le_iff, Z.div_pos; lia. Qed.

  (* summing the binned spectrum over all bins 0..N/2 returns the total of the quantities of the modes inside the Nyquist sphere, each mode
     counted exactly once; the modes outside the sphere are dropped - for every list of stored modes (any D, any channel) *)
  Theorem bins_total (N : Z) (qs : list (list Z * F)) : (0 <= N)%Z ->
    fsum (map (fun b => bin_sum F b qs) (zrange 0 (N / 2))) = fsum (map (fun p => if inside N (fst p) then snd p else 0) qs).
  Proof.
    intros HN. unfold bin_sum. rewrite fsum_map_swap. apply fsum_map_ext. intros [k q] _. cbn [fst snd].
    (* a bin b >= 0 holds k iff b = bin_of k *)
    assert (Hb : forall b, In b (zrange 0 (N / 2)) -> b <> bin_of k -> (if in_bin b k then q else 0) = 0).
    { intros b Hb Hne. apply in_zrange in Hb. destruct (in_bin b k) eqn:E; [|reflexivity]. apply in_bin_round in E; [contradiction | apply Hb]. }
    pose proof (bin_of_nonneg k) as H0. destruct (inside N k) eqn:E.
    - apply inside_iff in E; [|exact HN]. rewrite (fsum_single F _ (bin_of k)).
      + rewrite (proj2 (in_bin_round _ k H0) eq_refl). reflexivity.
      + apply NoDup_zrange_from.
      + apply in_zrange. split; assumption.
      + exact Hb.
    - apply fsum_map_all_zero.
      intros b Hin. apply Hb; [exact Hin|]. intros ->. apply in_zrange in Hin. rewrite (proj2 (inside_iff N k HN) (proj2 Hin)) in E. discriminate.
  Qed.
End Total.
