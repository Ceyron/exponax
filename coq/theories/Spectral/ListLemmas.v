(* Lists as used by the symbols: zips (map2), indexed maps (imap_from, imap = imap_from 0), positions (seq, nth).
   A zip with the positions is a map over them (map2_seq); a zip looks its second list up by position (map2_imap). *)
From Coq Require Import List PeanoNat Lia.
From EXV Require Import Spectral.Symbols.

Section Lists.
  Context {A B C E : Type}.

  Lemma map2_ext (f g : A -> B -> C) a b : (forall x y, In x a -> f x y = g x y) -> map2 f a b = map2 g a b.
  Proof.
    revert b. induction a as [|x a IH]; intros [|y b] H; cbn [map2]; [reflexivity ..|].
    rewrite (H x y (or_introl eq_refl)), IH; [reflexivity|]. intros x' y' Hx. apply H. right. exact Hx.
  Qed.
  Lemma map2_map_r (f : A -> C -> E) (g : B -> C) a b : map2 f a (map g b) = map2 (fun x y => f x (g y)) a b.
  Proof. revert b. induction a as [|x a IH]; intros [|y b]; cbn [map map2]; [reflexivity ..|]. rewrite IH. reflexivity. Qed.
  Lemma map2_flip (f : A -> B -> C) a b : map2 f a b = map2 (fun y x => f x y) b a.
  Proof. revert b. induction a as [|x a IH]; intros [|y b]; cbn [map2]; [reflexivity ..|]. rewrite IH. reflexivity. Qed.

  Lemma imap_from_ext (f g : nat -> A -> B) s l : (forall j a, In a l -> f j a = g j a) -> imap_from s f l = imap_from s g l.
  Proof.
    revert s. induction l as [|a l IH]; intros s H; cbn [imap_from]; [reflexivity|].
    rewrite (H s a (or_introl eq_refl)), IH; [reflexivity|]. intros j b Hb. apply H. right. exact Hb.
  Qed.
  Lemma imap_from_S (f : nat -> A -> B) s l : imap_from (S s) f l = imap_from s (fun j => f (S j)) l.
  Proof. revert s. induction l as [|a l IH]; intros s; cbn [imap_from]; [reflexivity | rewrite IH; reflexivity]. Qed.
  Lemma imap_from_length (f : nat -> A -> B) s l : length (imap_from s f l) = length l.
  Proof. revert s. induction l as [|a l IH]; intros s; cbn [imap_from length]; [reflexivity | rewrite IH; reflexivity]. Qed.
  Lemma map_imap_from (g : B -> C) (f : nat -> A -> B) s l : map g (imap_from s f l) = imap_from s (fun i x => g (f i x)) l.
  Proof. revert s. induction l as [|a l IH]; intros s; cbn [imap_from map]; [reflexivity | rewrite IH; reflexivity]. Qed.
  Lemma imap_from_map (f : nat -> B -> C) (h : A -> B) s l : imap_from s f (map h l) = imap_from s (fun i x => f i (h x)) l.
  Proof. revert s. induction l as [|a l IH]; intros s; cbn [imap_from map]; [reflexivity | rewrite IH; reflexivity]. Qed.
  Lemma imap_from_imap_from (f : nat -> A -> B) (g : nat -> B -> C) s l :
    imap_from s g (imap_from s f l) = imap_from s (fun j a => g j (f j a)) l.
  Proof. revert s. induction l as [|a l IH]; intros s; cbn [imap_from]; [reflexivity | rewrite IH; reflexivity]. Qed.
  Lemma imap_from_id (f : nat -> A -> A) s l : (forall j a, f j a = a) -> imap_from s f l = l.
  Proof. intros H. revert s. induction l as [|a l IH]; intros s; cbn [imap_from]; [reflexivity | rewrite H, IH; reflexivity]. Qed.
  Lemma nth_imap_from (f : nat -> A -> B) s l j da db : (j < length l)%nat -> nth j (imap_from s f l) db = f (s + j)%nat (nth j l da).
  Proof.
    revert s j. induction l as [|a l IH]; intros s j Hj; [inversion Hj|].
    destruct j as [|j]; cbn [imap_from nth]; [rewrite Nat.add_0_r; reflexivity|].
    rewrite (IH (S s) j), Nat.add_succ_r by apply Nat.succ_lt_mono, Hj. reflexivity.
  Qed.

  Lemma map2_imap (f : A -> C -> B) a b dc : (length a <= length b)%nat -> map2 f a b = imap_from 0 (fun c x => f x (nth c b dc)) a.
  Proof.
    revert b. induction a as [|x a IH]; intros [|y b] H; [reflexivity | reflexivity | inversion H |].
    cbn [map2 imap_from]. rewrite imap_from_S. cbn [nth]. apply f_equal, IH, le_S_n, H.
  Qed.
  Lemma map_nth_seq (f : A -> B) l da : map (fun c => f (nth c l da)) (seq 0 (length l)) = map f l.
  Proof.
    induction l as [|x l IH]; cbn [length seq map nth]; [reflexivity|].
    rewrite <- seq_shift, map_map. rewrite IH. reflexivity.
  Qed.
  Lemma map2_length (f : A -> B -> C) a b : length a = length b -> length (map2 f a b) = length a.
  Proof.
    revert b. induction a as [|x a IH]; intros [|y b] H; [reflexivity | discriminate H | discriminate H |].
    cbn [length map2]. apply f_equal, IH, Nat.succ_inj, H.
  Qed.
  Lemma nth_map2 (f : A -> B -> C) a b j dc da db : (j < length a)%nat -> (j < length b)%nat ->
    nth j (map2 f a b) dc = f (nth j a da) (nth j b db).
  Proof.
    revert b j. induction a as [|x a IH]; intros b j Ha Hb; [inversion Ha|]. destruct b as [|y b]; [inversion Hb|].
    destruct j as [|j]; cbn [map2 nth]; [reflexivity|]. apply IH; apply Nat.succ_lt_mono; assumption.
  Qed.
  Lemma nth_map_default (g : A -> B) l db da j : (j < length l)%nat -> nth j (map g l) db = g (nth j l da).
  Proof. intros H. rewrite (nth_indep _ db (g da)) by (rewrite map_length; exact H). apply map_nth. Qed.
  (* at every position, also past the end, when the map sends the default to the default *)
  Lemma nth_map_fix (g : A -> B) l da db j : g da = db -> nth j (map g l) db = g (nth j l da).
  Proof. intros <-. apply map_nth. Qed.
  Lemma nth_map2_fix (f : A -> B -> C) a b da db dc j : f da db = dc -> length a = length b ->
    nth j (map2 f a b) dc = f (nth j a da) (nth j b db).
  Proof.
    intros <- H. destruct (Nat.lt_ge_cases j (length a)) as [Hj|Hj]; [apply nth_map2; lia|].
    rewrite !nth_overflow by (rewrite ?map2_length; lia). reflexivity.
  Qed.

  Lemma map2_seq (f : nat -> A -> B) w da st :
    map2 f (seq st (length w)) w = map (fun j => f (st + j)%nat (nth j w da)) (seq 0 (length w)).
  Proof.
    revert st. induction w as [|x w IH]; intros st; cbn [length seq map2 map]; [reflexivity|].
    rewrite Nat.add_0_r. apply f_equal. rewrite IH, <- seq_shift, map_map. apply map_ext. intros j. rewrite Nat.add_succ_r. reflexivity.
  Qed.
  Lemma map2_seq0 (f : nat -> A -> B) w da n : length w = n -> map2 f (seq 0 n) w = map (fun j => f j (nth j w da)) (seq 0 n).
  Proof. intros <-. apply (map2_seq f w da 0). Qed.
End Lists.
