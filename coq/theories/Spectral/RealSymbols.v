(* Facts that need the base field to be formally real: with real wavenumbers kappa, d = i*kappa,
   the Laplace symbol -sum kappa_c^2 vanishes only at kappa = 0 (so the guarded inverses act only at the mean mode). *)
From Coq Require Import List Ring.
From EXV Require Import Base.Scalar Base.FieldLemmas Base.Cplx Spectral.Operators.
Local Open Scope fld_scope.

Definition FormallyRealL (F : FieldT) : Prop :=
  forall l : list F, fsum (map (fun x => x * x) l) = 0 -> Forall (fun x => x = 0) l.

Section RealSymbols.
  Variable F : FieldT.
  Hypothesis FR : FormallyRealL F.
  Add Ring Ff : (fring F).

  Definition dreal (kap : list F) : list (cx F) := map (fun x => cmul ci (cofr x)) kap.

  Lemma lapm_dreal (kap : list F) :
    lapm (COps F) (dreal kap) = cofr (- fsum (map (fun x => x * x) kap)).
  Proof.
    unfold lapm, dreal. induction kap as [|x kap IH]; cbn [map fsum].
    - apply cx_ext; cbn; ring.
    - rewrite IH. apply cx_ext; cbn; ring.
  Qed.

  Theorem lap_zero_iff (kap : list F) :
    lapm (COps F) (dreal kap) = @o0 (COps F) <-> Forall (fun x => x = 0) kap.
  Proof.
    split.
    - rewrite lapm_dreal. intros H. apply (f_equal re) in H. cbn in H. apply FR.
      transitivity (- - fsum (map (fun x => x * x) kap)); [ring | rewrite H; ring].
    - intros H. rewrite lapm_dreal, fsum_map_all_zero; [apply cx_ext; cbn; ring|].
      intros x Hx. rewrite (proj1 (Forall_forall _ _) H x Hx). ring.
  Qed.
  Theorem lap_zero_real (kap : list F) :
    lapm (COps F) (dreal kap) = @o0 (COps F) -> Forall (fun x => x = @o0 (COps F)) (dreal kap).
  Proof.
    intros H. apply lap_zero_iff in H. apply Forall_map. revert H. apply Forall_impl.
    intros x ->. apply cx_ext; cbn; ring.
  Qed.
End RealSymbols.
