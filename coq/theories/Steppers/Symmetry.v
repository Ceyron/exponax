(* C08: steppers commute with the symmetries of the periodic box.
   A translation by whole grid cells multiplies mode k by a character chi(k) (shift theorem, DFT/DFT1.v dft_shift) with
   chi(k + k') = chi(k) chi(k') and chi(k + N e_c) = chi(k).  Every operation of the models commutes with this twist:
   diagonal multipliers and masks trivially, the circular products because chi(m) chi(wrap(k - m)) = chi(k).
   Hence the products, the three single-channel terms treated here (conv_sc_cons, conv_sc_noncons, gradient_norm) and every ETDRK order
   commute with translations, for ALL states (white noise included). *)
From Coq Require Import ZArith List Permutation.
From EXV Require Import Base.Scalar Base.FieldLemmas Spectral.Symbols Spectral.ListLemmas Nonlin.Conv Nonlin.ConvProofs Nonlin.Terms Nonlin.TermsProofs Gen.ETDRK ETDRK.Stages.
Import ListNotations.
Local Open Scope fld_scope.

Section Twist.
  Variable F : FieldT.
  Add Ring Ff : (fring F).
  Variables (D : nat) (N Kc : Z).
  Variable chi : idx -> F.
  (* character property on the index sets the convolutions range over *)
  Hypothesis chi_conv2 : forall k m, chi m * chi (wrapD N (subi k m)) = chi k.
  Hypothesis chi_conv3 : forall k m1 m2, chi m1 * (chi m2 * chi (wrapD N (subi (subi k m1) m2))) = chi k.
  Definition twist (U : field F) : field F := fun k => chi k * U k.

  Theorem prod2_twist (U V : field F) k : prod2 F D N Kc (twist U) (twist V) k = chi k * prod2 F D N Kc U V k.
  Proof. apply (prod2_weighted F D N Kc chi chi); [intros m _; apply chi_conv2 | reflexivity | reflexivity]. Qed.

  Theorem prod3_twist (U V W : field F) k :
    prod3 F D N Kc (twist U) (twist V) (twist W) k = chi k * prod3 F D N Kc U V W k.
  Proof.
    unfold prod3. rewrite <- (msk_mul F Kc chi). apply msk_ext. intros _.
    unfold cconv3. rewrite <- !fsum_map_scal. apply fsum_map_ext. intros m1 _. rewrite <- !fsum_map_scal. apply fsum_map_ext. intros m2 _.
    unfold twist. rewrite !msk_mul, <- (chi_conv3 k m1 m2). ring.
  Qed.

  Variables (ii s b : F).
  Let P := prod2 F D N Kc.

  Theorem conv_sc_cons_twist u k : conv_sc_cons F P ii s D b (twist u) k = chi k * conv_sc_cons F P ii s D b u k.
  Proof. unfold conv_sc_cons, fscal, fmulp. unfold P. rewrite prod2_twist. ring. Qed.

  Theorem conv_sc_noncons_twist u k : conv_sc_noncons F P ii s D b (twist u) k = chi k * conv_sc_noncons F P ii s D b u k.
  Proof.
    unfold conv_sc_noncons, fscal. rewrite (fsumf_map_scal F _ (fun c => P u (fmulp F (dc F ii s c) u)) _ (chi k)); [ring|].
    intros c. apply (prod2_weighted F D N Kc chi chi); [intros m _; apply chi_conv2 | reflexivity | intros x; unfold fmulp, twist; ring].
  Qed.

  Theorem gradient_norm_twist zf u k : gradient_norm F P ii s D b zf (twist u) k = chi k * gradient_norm F P ii s D b zf u k.
  Proof.
    rewrite !gradient_norm_eq. destruct (andb zf (is_zero k)); [ring|].
    rewrite (fsumf_map_scal F _ (fun c => P (fmulp F (dc F ii s c) u) (fmulp F (dc F ii s c) u)) _ (chi k)); [ring|].
    intros c. apply (prod2_weighted F D N Kc chi chi); [intros m _; apply chi_conv2 | |]; intros x; unfold fmulp, twist; ring.
  Qed.
End Twist.

Section StepEquivariance.
  Variable F : FieldT.
  Add Ring Ff2 : (fring F).
  Variable I : Type.
  Variable tau : I -> F.
  Variables E Eh c1 c2 c3 c4 c5 c6 : I -> F.
  Variable N : (I -> F) -> (I -> F).
  Hypothesis N_ext : forall u v, (forall k, u k = v k) -> forall k, N u k = N v k.
  Definition tw (u : I -> F) : I -> F := fun k => tau k * u k.
  Hypothesis N_equiv : forall u k, N (tw u) k = tau k * N u k.

  Theorem etdrk0_equivariant u k : etdrk0_step F E (tw u) k = tau k * etdrk0_step F E u k.
  Proof. unfold etdrk0_step, tw. ring. Qed.

  Theorem etdrk1_equivariant u k : etdrk1_step F E c1 N (tw u) k = tau k * etdrk1_step F E c1 N u k.
  Proof. unfold etdrk1_step. rewrite N_equiv. unfold tw. ring. Qed.

  Lemma twisted_run p u : lin_prog F I (fun _ => True) p -> forall k, run N p (tw u) k = tau k * run N p u k.
  Proof.
    apply (run_lin N (tw u) (fun _ => True) (fun v' v => forall k, v' k = tau k * v k)); cbv beta.
    - intros a v' v _ H k. rewrite H. ring.
    - intros v' v w' w Hv Hw k. rewrite Hv, Hw. ring.
    - intros v' v w' w Hv Hw k. rewrite Hv, Hw. ring.
    - intros v' v H k. rewrite (N_ext v' (tw v) H). apply N_equiv.
    - reflexivity.
  Qed.

  Theorem etdrk2_equivariant u k : etdrk2_step F E c1 c2 N (tw u) k = tau k * etdrk2_step F E c1 c2 N u k.
  Proof. rewrite !etdrk2_run. apply twisted_run, gen2_lin; exact Logic.I. Qed.

  Theorem etdrk3_equivariant u k : etdrk3_step F E Eh c1 c2 c3 c4 c5 N (tw u) k = tau k * etdrk3_step F E Eh c1 c2 c3 c4 c5 N u k.
  Proof. rewrite !etdrk3_run. apply twisted_run, gen3_lin; exact Logic.I. Qed.

  Theorem etdrk4_equivariant u k : etdrk4_step F E Eh c1 c2 c3 c4 c5 c6 N (tw u) k = tau k * etdrk4_step F E Eh c1 c2 c3 c4 c5 c6 N u k.
  Proof. rewrite !etdrk4_run. apply twisted_run, gen4_lin; exact Logic.I. Qed.
End StepEquivariance.

(* isotropy of the generic symbol and embedding of a lower-dimensional state: the symbol is a sum over the axes, so it is invariant under
   every permutation of the axes, and a state constant along n of the n + 1 axes (d = 0 there) sees the 1-D symbol with a_0 -> (n + 1) a_0 *)
Section Isotropy.
  Variable F : FieldT.
  Add Ring Ff3 : (fring F).

  Lemma poly_sym_cons (a : list F) x d : poly_sym F a (x :: d) = poly_sym F a [x] + poly_sym F a d.
  Proof.
    unfold poly_sym, imap. generalize 0%nat. induction a as [|aj a IH]; intros j; cbn [imap_from]; cbn [fsum]; [cbn [map fsum]; ring|].
    rewrite (IH (S j)). cbn [map fsum]. ring.
  Qed.

  Lemma poly_sym_nil (a : list F) : poly_sym F a [] = 0.
  Proof.
    unfold poly_sym, imap. generalize 0%nat. induction a as [|aj a IH]; intros j; cbn [imap_from]; cbn [fsum]; [reflexivity|].
    rewrite (IH (S j)). cbn [map fsum]. ring.
  Qed.

  Theorem poly_sym_perm (a : list F) d d' : Permutation d d' -> poly_sym F a d = poly_sym F a d'.
  Proof. intros H. unfold poly_sym, imap. apply f_equal, imap_from_ext. intros j aj _. apply fsum_perm, H. Qed.

  Lemma poly_sym_0 a0 (a : list F) : poly_sym F (a0 :: a) [0] = a0.
  Proof.
    unfold poly_sym, imap. cbn [imap_from map fsum fpow].
    assert (H : forall j, fsum (imap_from (S j) (fun i ai => fsum (map (fun x => ai * fpow x i) [0])) a) = 0).
    { induction a as [|aj a IH]; intros j; cbn [imap_from map fsum fpow]; [reflexivity | rewrite IH; ring]. }
    rewrite H. ring.
  Qed.

  Theorem poly_sym_embed a0 (a : list F) x n d : Permutation d (x :: repeat 0 n) ->
    poly_sym F (a0 :: a) d = poly_sym F (fz (Z.of_nat (S n)) * a0 :: a) [x].
  Proof.
    intros H. rewrite (poly_sym_perm _ _ _ H), poly_sym_cons. clear H.
    assert (Hz : poly_sym F (a0 :: a) (repeat 0 n) = fz (Z.of_nat n) * a0).
    { induction n as [|n IH]; cbn [repeat]; [rewrite poly_sym_nil; cbn [Z.of_nat fz]; ring|].
      rewrite poly_sym_cons, poly_sym_0, IH, Nat2Z.inj_succ, <- Z.add_1_r, fz_add. cbn [fz fpos]. ring. }
    rewrite Hz, Nat2Z.inj_succ, <- Z.add_1_r, fz_add. unfold poly_sym, imap. cbn [imap_from map fsum fpow fz fpos]. ring.
  Qed.
End Isotropy.
