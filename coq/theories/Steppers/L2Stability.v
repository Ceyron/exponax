(* C11 end to end: if a step multiplies every stored mode of a REAL field by a factor of modulus <= 1 and returns a real field, the discrete
   L2 norm does not grow - in every dimension, for every state.  Mode-wise non-amplification (Steppers/NonAmplification.v) + Parseval on the
   stored half spectrum (Metrics/ParsevalRealD.v).  The order laws are premises (satisfiable over Q, Props/C11.v). *)
From Coq Require Import List Bool Lia Arith.
From EXV Require Import Base.Scalar Base.FieldLemmas Base.Cplx DFT.DFT1 IC.Normalize Metrics.MetricsProofs Metrics.ParsevalRealD
  Steppers.NonAmplification.
Import ListNotations.
Local Open Scope fld_scope.

Section L2.
  Variable F : FieldT.
  Hypothesis FR : FormallyReal F.
  Add Ring Ffl2 : (fring F).
  Variable le : F -> F -> Prop.
  Infix "<=" := le.
  Hypothesis le_refl : forall x, x <= x.
  Hypothesis le_add : forall x y z t, x <= y -> z <= t -> x + z <= y + t.
  Hypothesis le_mul_nonneg : forall x y, 0 <= x -> 0 <= y -> 0 <= x * y.
  Hypothesis sq_nonneg : forall x, 0 <= x * x.
  Variable n : nat.
  Variable w : cx F.
  Hypothesis n_pos : (0 < n)%nat.
  Hypothesis w_n : @fpow (CField FR) w n = c1 F.
  Hypothesis w_prim : forall m, (0 < m < n)%nat -> @fpow (CField FR) w m <> c1 F.
  Hypothesis w_unit : cmul w (cconj w) = c1 F.

  Lemma fsum_le {A} (f g : A -> F) (l : list A) : (forall x, In x l -> f x <= g x) -> fsum (map f l) <= fsum (map g l).
  Proof.
    induction l as [|a l IH]; intros H; cbn [map fsum]; [apply le_refl|].
    apply le_add; [apply H; left; reflexivity | apply IH; intros x Hx; apply H; right; exact Hx].
  Qed.

  Lemma half_mult_nonneg b : 0 <= half_mult F n b.
  Proof.
    assert (H1 : 0 <= (1 : F)) by (replace (1 : F) with ((1 : F) * 1) by ring; apply sq_nonneg).
    unfold half_mult. destruct (_ || _); [exact H1|].
    unfold two. replace (0 : F) with ((0 : F) + 0) by ring. apply le_add; exact H1.
  Qed.

  Lemma mul_le_mono_nonneg c a b : 0 <= c -> 0 <= b - a -> c * a <= c * b.
  Proof.
    intros Hc Hd. apply (le_of_sub_nonneg F le le_refl le_add). replace (c * b - c * a) with (c * (b - a)) by ring.
    apply le_mul_nonneg; assumption.
  Qed.

  Theorem l2_norm_not_amplified D (u v : list nat -> F) (E : list nat -> cx F) :
    (forall lead b, In lead (gridD D n) -> (b < n / 2 + 1)%nat ->
       rdftD F n w (S D) v (lead ++ [b]) = cmul (E (lead ++ [b])) (rdftD F n w (S D) u (lead ++ [b]))) ->
    (forall k, 0 <= 1 - cnorm2 (E k)) ->
    npts F (S D) n * sumD F (S D) n (fun j => v j * v j) <= npts F (S D) n * sumD F (S D) n (fun j => u j * u j).
  Proof.
    intros Hv HE.
    rewrite <- (parseval_half_spectrum_D F FR n w n_pos w_n w_prim w_unit D v), <- (parseval_half_spectrum_D F FR n w n_pos w_n w_prim w_unit D u).
    unfold sumD. apply fsum_le. intros lead Hl. unfold bsum. apply fsum_le. intros b Hb. apply in_seq in Hb.
    rewrite (Hv lead b Hl ltac:(lia)).
    apply mul_le_mono_nonneg; [apply half_mult_nonneg|].
    apply (mode_gap_nonneg F le le_add le_mul_nonneg sq_nonneg), HE.
  Qed.

  (* equality when every factor has modulus one (advection, dispersion on odd grids / Nyquist-free states) *)
  Theorem l2_norm_preserved D (u v : list nat -> F) (E : list nat -> cx F) :
    (forall lead b, In lead (gridD D n) -> (b < n / 2 + 1)%nat ->
       rdftD F n w (S D) v (lead ++ [b]) = cmul (E (lead ++ [b])) (rdftD F n w (S D) u (lead ++ [b]))) ->
    (forall k, cnorm2 (E k) = 1) ->
    npts F (S D) n * sumD F (S D) n (fun j => v j * v j) = npts F (S D) n * sumD F (S D) n (fun j => u j * u j).
  Proof.
    intros Hv HE.
    rewrite <- (parseval_half_spectrum_D F FR n w n_pos w_n w_prim w_unit D v), <- (parseval_half_spectrum_D F FR n w n_pos w_n w_prim w_unit D u).
    unfold sumD. apply fsum_map_ext. intros lead Hl. unfold bsum. apply fsum_map_ext. intros b Hb. apply in_seq in Hb.
    rewrite (Hv lead b Hl ltac:(lia)), (cnorm2_cmul F), HE. ring.
  Qed.
End L2.
