(* C11, mode by mode: for real coefficients and real wavenumbers the symbols have real part <= 0 (complex numbers over a field F whose
   order is given by section hypotheses, discharged as premises of the theorems), and multiplication by E with |E|^2 <= 1 does not
   increase |u|^2 because the squared modulus is multiplicative. *)
From Coq Require Import ZArith Field List Lia.
From EXV Require Import Base.Scalar Base.FieldLemmas Base.Cplx Spectral.Symbols Spectral.RealSymbols.
Local Open Scope fld_scope.

Section RealParts.
  Variable F : FieldT.
  Add Ring Ff : (fring F).
  Notation C := (COps F).
  Definition creal (x : F) : cx F := cofr x.

  Lemma re_fsum (l : list (cx F)) : re (@fsum C l) = fsum (map re l).
  Proof. exact (Cplx.re_fsum F l). Qed.
  Lemma im_fsum (l : list (cx F)) : im (@fsum C l) = fsum (map im l).
  Proof. exact (Cplx.im_fsum F l). Qed.

  Lemma ipow_even (x : F) n : @fpow C (cmul ci (cofr x)) (2 * n) = cofr (fpow (- (x * x)) n).
  Proof.
    induction n as [|n IH]; [reflexivity|]. replace (2 * S n)%nat with (S (S (2 * n))) by lia.
    cbn [fpow]. rewrite IH. apply cx_ext; cbn; ring.
  Qed.
  Lemma ipow_odd (x : F) n : @fpow C (cmul ci (cofr x)) (2 * n + 1) = mkcx 0 (x * fpow (- (x * x)) n).
  Proof. rewrite Nat.add_comm. cbn [Nat.add fpow]. rewrite ipow_even. apply cx_ext; cbn; ring. Qed.

  (* gradient inner products of odd order (advection 1, dispersion 3): purely imaginary symbols, |exp| = 1 *)
  Theorem gip_imaginary_odd n (v kap : list F) : re (gip_sym C (map cofr v) (2 * n + 1) (dreal F kap)) = 0.
  Proof.
    unfold gip_sym, dreal. revert kap. induction v as [|vc v IH]; intros [|x kap]; cbn [map map2 fsum]; try reflexivity.
    rewrite ipow_odd. cbn [re oadd omul COps cadd cmul cofr im]. rewrite IH. ring.
  Qed.

  Theorem laplace_real_even n (kap : list F) : (0 < n)%nat ->
    laplace_sym C (2 * n) (dreal F kap) = cofr (fsum (map (fun x => fpow (- (x * x)) n) kap)).
  Proof.
    intros Hn. unfold laplace_sym, dreal. destruct (2 * n)%nat as [|m] eqn:E; [lia|]. rewrite <- E. clear E.
    induction kap as [|x kap IH]; cbn [map fsum]; [reflexivity|]. rewrite IH, ipow_even. apply cx_ext; cbn; ring.
  Qed.
  Lemma laplace_real_2 (kap : list F) : laplace_sym C 2 (dreal F kap) = cofr (- fsum (map (fun x => x * x) kap)).
  Proof.
    etransitivity; [exact (laplace_real_even 1 kap Nat.lt_0_1)|]. f_equal.
    transitivity (- (1) * fsum (map (fun x => x * x) kap)); [|ring].
    rewrite <- fsum_map_scal. apply fsum_map_ext. intros x _. cbn [fpow]. ring.
  Qed.
  Lemma laplace_real_4 (kap : list F) : laplace_sym C 4 (dreal F kap) = cofr (fsum (map (fun x => x * x * x * x) kap)).
  Proof. etransitivity; [exact (laplace_real_even 2 kap Nat.lt_0_2)|]. f_equal. apply fsum_map_ext. intros x _. cbn [fpow]. ring. Qed.
End RealParts.

Section Order.
  Variable F : FieldT.
  Add Ring Ff2 : (fring F).
  Variable le : F -> F -> Prop.
  Infix "<=" := le.
  Hypothesis le_refl : forall x, x <= x.
  Hypothesis le_add : forall x y z t, x <= y -> z <= t -> x + z <= y + t.
  Hypothesis le_mul_nonneg : forall x y, 0 <= x -> 0 <= y -> 0 <= x * y.
  Hypothesis sq_nonneg : forall x, 0 <= x * x.

  Lemma le_of_sub_nonneg (a b : F) : 0 <= b - a -> a <= b.
  Proof. intros H. replace a with (a + 0) by ring. replace b with (a + (b - a)) by ring. apply le_add; [apply le_refl | exact H]. Qed.

  Lemma cnorm2_nonneg (z : cx F) : 0 <= cnorm2 z.
  Proof. unfold cnorm2. replace (0 : F) with ((0 : F) + 0) by ring. apply le_add; apply sq_nonneg. Qed.

  Lemma mode_gap_nonneg (E u : cx F) : 0 <= 1 - cnorm2 E -> 0 <= cnorm2 u - cnorm2 (cmul E u).
  Proof.
    intros H. rewrite cnorm2_cmul. replace (cnorm2 u - cnorm2 E * cnorm2 u) with (cnorm2 u * (1 - cnorm2 E)) by ring.
    apply le_mul_nonneg; [apply cnorm2_nonneg | exact H].
  Qed.
  Theorem mode_not_amplified (E u : cx F) : 0 <= 1 - cnorm2 E -> cnorm2 (cmul E u) <= cnorm2 u.
  Proof. intros H. apply le_of_sub_nonneg, mode_gap_nonneg, H. Qed.

  (* equality when |E|^2 = 1: advection, dispersion, waves *)
  Theorem mode_norm_preserved (E u : cx F) : cnorm2 E = 1 -> cnorm2 (cmul E u) = cnorm2 u.
  Proof. intros H. rewrite cnorm2_cmul, H. ring. Qed.

  (* weighted sums over modes (Parseval weights w_k >= 0) are monotone: the L2 norm does not grow *)
  Theorem weighted_sum_not_amplified (w : list F) (E u : list (cx F)) :
    Forall (fun x => 0 <= x) w -> Forall (fun e => 0 <= 1 - cnorm2 e) E ->
    fsum (map2 (fun wk p => wk * cnorm2 (cmul (fst p) (snd p))) w (combine E u))
    <= fsum (map2 (fun wk p => wk * cnorm2 (snd p)) w (combine E u)).
  Proof.
    intros Hw. revert E u. induction Hw as [|wk w Hk Hw IH]; intros E u HE; cbn [map2 fsum]; [apply le_refl|].
    destruct HE as [|e E He HE]; cbn [combine map2 fsum]; [apply le_refl|]. destruct u as [|uk u]; cbn [combine map2 fsum]; [apply le_refl|].
    apply le_add; [|apply IH; exact HE]. cbn [fst snd]. apply le_of_sub_nonneg.
    replace (wk * cnorm2 uk - wk * cnorm2 (cmul e uk)) with (wk * (cnorm2 uk - cnorm2 (cmul e uk))) by ring.
    apply le_mul_nonneg; [exact Hk | apply mode_gap_nonneg; exact He].
  Qed.

  (* the c2r transform keeps only the real part of a self-conjugate mode: |Re c|^2 <= |c|^2 *)
  Theorem real_part_contracts (c : cx F) : cnorm2 (cofr (re c)) <= cnorm2 c.
  Proof.
    apply le_of_sub_nonneg. unfold cnorm2, cofr. cbn [re im].
    replace (re c * re c + im c * im c - (re c * re c + 0 * 0)) with (im c * im c) by ring. apply sq_nonneg.
  Qed.

  Lemma fsum_map_nonneg {A} (f : A -> F) (l : list A) : (forall x, 0 <= f x) -> 0 <= fsum (map f l).
  Proof.
    intros H. induction l as [|x l IH]; cbn [map fsum]; [apply le_refl|].
    replace (0 : F) with ((0 : F) + 0) by ring. apply le_add; [apply H | exact IH].
  Qed.

  Theorem diffusion_symbol_nonpositive (nu : F) (kap : list F) : 0 <= nu ->
    0 <= - re (@omul (COps F) (cofr nu) (laplace_sym (COps F) 2 (dreal F kap))).
  Proof.
    intros Hn. rewrite laplace_real_2. set (S := fsum _). cbn [omul COps cmul cofr re im].
    replace (- (nu * - S - 0 * 0)) with (nu * S) by ring. apply le_mul_nonneg; [exact Hn | apply fsum_map_nonneg; exact sq_nonneg].
  Qed.
  Theorem hyper_diffusion_symbol_nonpositive (mu : F) (kap : list F) : 0 <= mu ->
    0 <= - re (@omul (COps F) (cofr (- mu)) (laplace_sym (COps F) 4 (dreal F kap))).
  Proof.
    intros Hm. rewrite laplace_real_4. set (S := fsum _). cbn [omul COps cmul cofr re im].
    replace (- (- mu * S - 0 * 0)) with (mu * S) by ring. apply le_mul_nonneg; [exact Hm | apply fsum_map_nonneg].
    intros x. replace (x * x * x * x) with ((x * x) * (x * x)) by ring. apply sq_nonneg.
  Qed.
End Order.

Section WaveEnergy.
  Variable F : FieldT.
  Add Field Ff3 : (fth F).
  (* one mode of the wave stepper in real form (C01_wave_exact): h' = C h + (S/cr) v, v' = -cr S h + C v with real C = cos, S = sin,
     cr = c*rho; h, v complex *)
  Theorem wave_energy_conserved (Cc Ss cr : F) (h v : cx F) : Cc * Cc + Ss * Ss = 1 -> cr <> 0 ->
    let h' := cadd (cscal Cc h) (cscal (Ss / cr) v) in
    let v' := cadd (cscal (- (cr * Ss)) h) (cscal Cc v) in
    cnorm2 v' + cr * cr * cnorm2 h' = cnorm2 v + cr * cr * cnorm2 h.
  Proof.
    intros H1 Hc. cbv zeta. unfold cnorm2, cadd, cscal. cbn [re im].
    transitivity ((Cc * Cc + Ss * Ss) * (im v * im v + re v * re v + cr * cr * (re h * re h + im h * im h))).
    - field. exact Hc.
    - rewrite H1. ring.
  Qed.
End WaveEnergy.
