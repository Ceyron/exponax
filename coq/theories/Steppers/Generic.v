(* Specific steppers versus the generic stepper with the equivalent coefficient list (C13): every symbol is a combination of the
   power sums p_j(d) = sum_c d_c^j, which the proofs keep as atoms, so they hold for every number of axes.  Also: the mixing-flag
   variants compared in 1D and 2D, and the derivative operator at the mean mode. *)
From Coq Require Import ZArith List Lia.
From EXV Require Import Base.Scalar Base.FieldLemmas Spectral.Symbols Spectral.ListLemmas.
Import ListNotations.
Local Open Scope fld_scope.

Section Pairs.
  Variable F : FieldT.
  Add Ring Ff : (fring F).

  Lemma poly_sym_power_sums a (d : list F) : poly_sym F a d = fsum (imap (fun j aj => aj * fsum (map (fun x => fpow x j) d)) a).
  Proof. unfold poly_sym, imap. f_equal. apply imap_from_ext. intros j aj _. apply fsum_map_scal. Qed.

  Lemma gip_const c m (d : list F) : gip_sym F (const_vec F c d) m d = c * fsum (map (fun x => fpow x m) d).
  Proof. unfold gip_sym, const_vec. induction d as [|x l IH]; cbn [map map2 fsum]; [ring | rewrite IH; ring]. Qed.

  Lemma diag_row_from (e : list F) s i x z :
    fsum (map2 (fun a y => a * (z * y)) (map (fun j => if Nat.eqb i j then x else 0) (seq s (length e))) e)
    = if (i <? s)%nat then 0 else x * (z * nth (i - s) e 0).
  Proof.
    revert s. induction e as [|y e IH]; intros s; cbn [length seq map map2 fsum].
    - destruct (i <? s)%nat, (i - s)%nat; cbn [nth]; ring.
    - rewrite IH. destruct (Nat.eqb_spec i s), (Nat.ltb_spec i s), (Nat.ltb_spec i (S s)); try lia.
      + subst i. rewrite Nat.sub_diag. cbn [nth]. ring.
      + ring.
      + replace (i - s)%nat with (S (i - S s)) by lia. cbn [nth]. ring.
  Qed.

  Lemma quad_form_diag (v d : list F) : length v = length d -> quad_form F (diag_mat F v) d = gip_sym F v 2 d.
  Proof.
    intros H. unfold quad_form, diag_mat, diag_row, gip_sym, imap.
    rewrite (map2_imap _ (imap_from 0 _ v) d 0), imap_from_imap_from, (map2_imap _ v d 0) by (rewrite ?imap_from_length; lia).
    f_equal. apply imap_from_ext. intros i x _. rewrite H, diag_row_from. cbn [Nat.ltb Nat.leb fpow]. rewrite Nat.sub_0_r. ring.
  Qed.

  Lemma diffusion_scalar nu (d : list F) : sym_diffusion F (diag_mat F (const_vec F nu d)) d = nu * laplace_sym F 2 d.
  Proof. unfold sym_diffusion. rewrite quad_form_diag by apply map_length. apply gip_const. Qed.

  (* both sides as combinations of power sums; [ring] finishes *)
  Ltac power_sums := rewrite ?diffusion_scalar, poly_sym_power_sums; unfold imap, laplace_sym; cbn [imap_from fsum]; rewrite ?gip_const.

  Variable d : list F.
  Lemma advection_generic c : sym_advection F (const_vec F c d) d = poly_sym F [0; - c] d.
  Proof. unfold sym_advection. power_sums. ring. Qed.
  Lemma diffusion_generic nu : sym_diffusion F (diag_mat F (const_vec F nu d)) d = poly_sym F [0; 0; nu] d.
  Proof. power_sums. ring. Qed.
  Lemma advection_diffusion_generic c nu :
    sym_advection_diffusion F (const_vec F c d) (diag_mat F (const_vec F nu d)) d = poly_sym F [0; - c; nu] d.
  Proof. unfold sym_advection_diffusion. fold (sym_diffusion F (diag_mat F (const_vec F nu d)) d). power_sums. ring. Qed.
  Lemma dispersion_generic xi : sym_dispersion F false (const_vec F xi d) d = poly_sym F [0; 0; 0; xi] d.
  Proof. unfold sym_dispersion. power_sums. ring. Qed.
  Lemma hyper_diffusion_generic mu : sym_hyper_diffusion F false mu d = poly_sym F [0; 0; 0; 0; - mu] d.
  Proof. unfold sym_hyper_diffusion. power_sums. ring. Qed.
  Lemma burgers_generic nu : sym_burgers F nu d = poly_sym F [0; 0; nu] d.
  Proof. unfold sym_burgers. power_sums. ring. Qed.
  Lemma kdv_generic nu xi mu : sym_kdv F false false nu xi mu d = poly_sym F [0; 0; nu; - xi; - mu] d.
  Proof.
    unfold sym_kdv, ones. rewrite map_map. fold (const_vec F (xi * 1) d). power_sums. ring.
  Qed.
  Lemma ks_generic s2 s4 : sym_ks F s2 s4 d = poly_sym F [0; 0; - s2; 0; - s4] d.
  Proof. unfold sym_ks. power_sums. ring. Qed.
  (* zeroth-order terms: the generic symbol counts a_0 once per axis, so a_0 = c_0 / D *)
  Lemma zeroth_order_generic nu c0 a0 :
    fz (Z.of_nat (length d)) * a0 = c0 -> nu * laplace_sym F 2 d + c0 = poly_sym F [a0; 0; nu] d.
  Proof. intros <-. power_sums. cbn [fpow]. rewrite fsum_map_const. ring. Qed.
  Lemma navier_stokes_generic nu drag a0 :
    fz (Z.of_nat (length d)) * a0 = drag -> sym_navier_stokes F nu drag d = poly_sym F [a0; 0; nu] d.
  Proof. intros H. rewrite <- (zeroth_order_generic nu drag a0 H). unfold sym_navier_stokes, laplace_sym. ring. Qed.
  (* Swift-Hohenberg has (k_c + Laplace)^2: generic (sum of pure 4th derivatives) only in 1D *)
  Lemma swift_hohenberg_generic_1d r kc x :
    sym_swift_hohenberg F r kc [x] = poly_sym F [r - kc * kc; 0; - (fz 2 * kc); 0; - (1 : F)] [x].
  Proof. unfold sym_swift_hohenberg. power_sums. cbn [map fsum fpow fz fpos]. ring. Qed.

  Lemma dispersion_flags_1d xi x : sym_dispersion F true [xi] [x] = sym_dispersion F false [xi] [x].
  Proof. unfold sym_dispersion, gip_sym, laplace_sym. cbn [map map2 fsum fpow]. ring. Qed.
  Lemma hyper_diffusion_flags_1d mu x : sym_hyper_diffusion F true mu [x] = sym_hyper_diffusion F false mu [x].
  Proof. unfold sym_hyper_diffusion, laplace_sym. cbn [map fsum fpow]. ring. Qed.
  Lemma hyper_diffusion_flags_2d mu x y :
    sym_hyper_diffusion F true mu [x; y] = sym_hyper_diffusion F false mu [x; y] - fz 2 * mu * (x * x) * (y * y).
  Proof. unfold sym_hyper_diffusion, laplace_sym. cbn [map fsum fpow fz fpos]. ring. Qed.
End Pairs.

Section DC.
  Variable F : FieldT.
  Add Ring Ff2 : (fring F).
  Lemma dop_dc ii s n : dop F ii s (repeat 0%Z n) = repeat 0 n.
  Proof. induction n as [|n IH]; cbn [repeat dop map]; [reflexivity|]. unfold dop in IH. rewrite IH. f_equal. cbn [fz]. ring. Qed.
End DC.
