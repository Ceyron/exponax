(* C10: the ETDRK steps of the 3D velocity steppers map divergence-free states to divergence-free states.
   States are functions of (channel, mode); the linear propagators and coefficients are the same for all channels
   (the linear operator has shape (1, ...) and is broadcast), the nonlinear term is divergence free for every input
   (it ends with the Leray projection; the Kolmogorov forcing is divergence free). Subject: Gen/ETDRK.v (translated from the source). *)
From Coq Require Import ZArith.
From EXV Require Import Base.Scalar Base.FieldLemmas Gen.ETDRK ETDRK.Stages.
Local Open Scope fld_scope.

Section DivFree.
  Variable F : FieldT.
  Add Ring Fr : (fring F).
  Variable M : Type.                               (* modes *)
  Notation I := (nat * M)%type.
  Variable d : nat -> M -> F.                      (* derivative operator, channel/axis c at mode k *)
  Definition div3 (w : I -> F) (k : M) : F := d 0 k * w (0%nat, k) + d 1 k * w (1%nat, k) + d 2 k * w (2%nat, k).

  Variable N : (I -> F) -> (I -> F).
  Hypothesis N_div_free : forall v k, div3 (N v) k = 0.
  Variables E Eh c1 c2 c3 c4 c5 c6 : I -> F.
  Variables E0 Eh0 g1 g2 g3 g4 g5 g6 : M -> F.
  Hypothesis HE : forall c k, E (c, k) = E0 k.
  Hypothesis HEh : forall c k, Eh (c, k) = Eh0 k.
  Hypothesis H1 : forall c k, c1 (c, k) = g1 k.
  Hypothesis H2 : forall c k, c2 (c, k) = g2 k.
  Hypothesis H3 : forall c k, c3 (c, k) = g3 k.
  Hypothesis H4 : forall c k, c4 (c, k) = g4 k.
  Hypothesis H5 : forall c k, c5 (c, k) = g5 k.
  Hypothesis H6 : forall c k, c6 (c, k) = g6 k.

  Lemma div3_lin (a b : M -> F) (x y : I -> F) k :
    div3 (fun i => a (snd i) * x i + b (snd i) * y i) k = a k * div3 x k + b k * div3 y k.
  Proof. unfold div3. cbn [snd]. ring. Qed.

  (* divergence-free fields are closed under what a stage program does with coefficients that are the same for
     every channel, and the coefficient arrays of the steppers are such *)
  Definition chan (a : I -> F) : Prop := exists a0, forall c k, a (c, k) = a0 k.
  Definition div_free (v : I -> F) : Prop := forall k, div3 v k = 0.
  Lemma div_free_mul a v : chan a -> div_free v -> div_free (fun i => a i * v i).
  Proof.
    intros [a0 Ha] Hv k. unfold div3. rewrite !Ha. transitivity (a0 k * div3 v k); [unfold div3; ring | rewrite Hv; ring].
  Qed.
  Lemma div_free_add v w : div_free v -> div_free w -> div_free (fun i => v i + w i).
  Proof. intros Hv Hw k. transitivity (div3 v k + div3 w k); [unfold div3; ring | rewrite Hv, Hw; ring]. Qed.
  Lemma div_free_sub v w : div_free v -> div_free w -> div_free (fun i => v i - w i).
  Proof. intros Hv Hw k. transitivity (div3 v k - div3 w k); [unfold div3; ring | rewrite Hv, Hw; ring]. Qed.
  Lemma chan_const x : chan (fun _ => x).
  Proof. exists (fun _ => x). reflexivity. Qed.
  Lemma chan_mul a b : chan a -> chan b -> chan (fun i => a i * b i).
  Proof. intros [a0 Ha] [b0 Hb]. exists (fun k => a0 k * b0 k). intros c k. rewrite Ha, Hb. reflexivity. Qed.
  Lemma chan_E : chan E. Proof. exact (ex_intro _ E0 HE). Qed.
  Lemma chan_Eh : chan Eh. Proof. exact (ex_intro _ Eh0 HEh). Qed.
  Lemma chan_1 : chan c1. Proof. exact (ex_intro _ g1 H1). Qed.
  Lemma chan_2 : chan c2. Proof. exact (ex_intro _ g2 H2). Qed.
  Lemma chan_3 : chan c3. Proof. exact (ex_intro _ g3 H3). Qed.
  Lemma chan_4 : chan c4. Proof. exact (ex_intro _ g4 H4). Qed.
  Lemma chan_5 : chan c5. Proof. exact (ex_intro _ g5 H5). Qed.
  Lemma chan_6 : chan c6. Proof. exact (ex_intro _ g6 H6). Qed.

  Variable u : I -> F.
  Hypothesis u_div_free : forall k, div3 u k = 0.

  Lemma div_free_run p : lin_prog F I chan p -> div_free (run N p u).
  Proof.
    exact (run_lin N u chan (fun v _ => div_free v) (fun a v _ => div_free_mul a v) (fun v _ w _ => div_free_add v w)
             (fun v _ w _ => div_free_sub v w) N (fun v _ _ => N_div_free v) u u_div_free p).
  Qed.

  Theorem etdrk0_preserves k : div3 (etdrk0_step F E u) k = 0.
  Proof. exact (div_free_mul E u chan_E u_div_free k). Qed.
  Theorem etdrk1_preserves k : div3 (etdrk1_step F E c1 N u) k = 0.
  Proof. exact (div_free_add _ _ (div_free_mul E u chan_E u_div_free) (div_free_mul c1 (N u) chan_1 (N_div_free u)) k). Qed.
  Theorem etdrk2_preserves k : div3 (etdrk2_step F E c1 c2 N u) k = 0.
  Proof. exact (div_free_run _ (gen2_lin F I chan E c1 c2 chan_E chan_1 chan_2) k). Qed.
  Theorem etdrk3_preserves k : div3 (etdrk3_step F E Eh c1 c2 c3 c4 c5 N u) k = 0.
  Proof.
    exact (div_free_run _ (gen3_lin F I chan E Eh c1 c2 c3 c4 c5 chan_E chan_Eh chan_1 chan_2 chan_3 chan_4 chan_5 (chan_const _)) k).
  Qed.
  Theorem etdrk4_preserves k : div3 (etdrk4_step F E Eh c1 c2 c3 c4 c5 c6 N u) k = 0.
  Proof.
    exact (div_free_run _ (gen4_lin F I chan E Eh c1 c2 c3 c4 c5 c6 chan_E chan_Eh chan_1 chan_2 chan_3 chan_4 chan_6 (chan_const _)
                          (chan_mul _ _ chan_5 (chan_const _))) k).
  Qed.
End DivFree.
