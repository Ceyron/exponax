From Coq Require Import ZArith Field List.
From EXV Require Import Base.Scalar Base.FieldLemmas Steppers.Linear.
Local Open Scope fld_scope.

Section LinearStepProofs.
  Variable F : FieldT.
  Add Ring Ff : (fring F).
  Variable cexp : F -> F.
  Hypothesis cexp_add : forall a b, cexp (a + b) = cexp a * cexp b.
  Hypothesis cexp_0 : cexp 0 = 1.
  Variable I : Type.
  Variable lam : I -> F.

  Lemma cexp_nmul (n : nat) x : cexp (fz (Z.of_nat n) * x) = fpow (cexp x) n.
  Proof.
    induction n as [|n IH].
    - cbn [Z.of_nat fz fpow]. replace (0 * x) with (0 : F) by ring. exact cexp_0.
    - rewrite Nat2Z.inj_succ. unfold Z.succ. rewrite fz_add. cbn [fpow].
      replace ((fz (Z.of_nat n) + fz 1) * x) with (x + fz (Z.of_nat n) * x) by (cbn [fz fpos]; ring).
      rewrite cexp_add, IH. reflexivity.
  Qed.

  Theorem semigroup (dt : F) (n : nat) (u : I -> F) (k : I) :
    iter_step F I n (linear_step F cexp I dt lam) u k = linear_step F cexp I (fz (Z.of_nat n) * dt) lam u k.
  Proof.
    unfold linear_step at 2, exp_term. replace (fz (Z.of_nat n) * dt * lam k) with (fz (Z.of_nat n) * (dt * lam k)) by ring.
    rewrite cexp_nmul. revert k. induction n as [|n IH]; intros k; cbn [iter_step fpow]; [ring|].
    unfold linear_step at 1, exp_term. rewrite IH. ring.
  Qed.

  (* a step with -dt undoes a step with dt (every linear stepper, every state: in exact arithmetic also the dissipative ones) *)
  Theorem inverse_step (dt : F) (u : I -> F) (k : I) :
    linear_step F cexp I (- dt) lam (linear_step F cexp I dt lam u) k = u k.
  Proof.
    unfold linear_step, exp_term.
    replace (cexp (- dt * lam k) * (cexp (dt * lam k) * u k)) with (cexp (- dt * lam k + dt * lam k) * u k) by (rewrite cexp_add; ring).
    replace (- dt * lam k + dt * lam k) with (0 : F) by ring. rewrite cexp_0. ring.
  Qed.

  Theorem propagator_sum (dt a b : F) : cexp (dt * (a + b)) = cexp (dt * a) * cexp (dt * b).
  Proof. rewrite <- cexp_add. f_equal. ring. Qed.

  Lemma cexp_nz x : cexp x <> 0.
  Proof.
    intro H. apply (f_1_neq_0 F). rewrite <- cexp_0. replace (0 : F) with (x + - x) by ring.
    rewrite cexp_add, H. ring.
  Qed.
End LinearStepProofs.

Section WaveProofs.
  Variable F : FieldT.
  Add Field Ff2 : (fth F).
  Variables ii s c rho dt Ep Em : F.
  Hypothesis ii_sq : ii * ii = - (1).
  Hypothesis s_sq : fz 2 * (s * s) = 1.
  Hypothesis c_nz : c <> 0.
  Lemma ii_neq0 : ii <> 0.
  Proof. intro H. apply (f_1_neq_0 F). transitivity (- (ii * ii)); [rewrite ii_sq; ring | rewrite H; ring]. Qed.

  (* cos(theta) = (e^{i theta} + e^{-i theta})/2, sin(theta) = (e^{i theta} - e^{-i theta})/(2i), theta = c rho dt *)
  Definition Ccos : F := (Ep + Em) / fz 2.
  Definition Csin : F := (Ep - Em) / (fz 2 * ii).

  (* every non-mean mode: the exact solution of h'' = -(c rho)^2 h, independent of the normalisation s *)
  Theorem wave_exact (h v : F) : rho <> 0 ->
    wave_mode F ii s c rho dt Ep Em false h v
    = (Ccos * h + Csin / (c * rho) * v, - (c * rho) * Csin * h + Ccos * v).
  Proof.
    intros Hr. unfold wave_mode, Ccos, Csin.
    rewrite (proj2 (feqb_false F rho 0) Hr).
    (* denominators cleared, both components are polynomial identities modulo 2 s^2 = 1 and i^2 = -1 *)
    f_equal; field [s_sq ii_sq].
    - exact (conj ii_neq0 (conj (fz2_neq0 F) (conj Hr c_nz))).
    - exact (conj (fz2_neq0 F) ii_neq0).
  Qed.

  (* the mean mode: h drifts linearly with the (constant) mean velocity -- exact solution of h' = v, v' = 0 *)
  Theorem wave_exact_dc (h v : F) : rho = 0 -> Ep = 1 -> Em = 1 ->
    wave_mode F ii s c rho dt Ep Em true h v = (h + dt * v, v).
  Proof.
    intros Hr H1 H2. unfold wave_mode. rewrite Hr, H1, H2. rewrite (feqb_refl F 0).
    (* fz 2 written out as (1 + 1) * 1, so that ring reads it as the constant 2 *)
    pose proof s_sq as Hs. cbn [fz fpos] in Hs.
    f_equal.
    - field [Hs]. exact (conj c_nz ii_neq0).
    - ring [Hs].
  Qed.
End WaveProofs.
