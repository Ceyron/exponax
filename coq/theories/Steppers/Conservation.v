(* C09: conserved mean and constant equilibria.  Every ETDRK order (the step functions of Gen/ETDRK.v, translated from the source)
   leaves a mode unchanged where the propagator is 1 (lambda = 0) and the nonlinear term vanishes for every input; the conservation-form
   terms of Nonlin/Terms.v and the conservation-form symbols of Spectral/Symbols.v vanish at the mean mode.  A state with
   lambda*u + N(u) = 0 mode by mode (a constant equilibrium) is a fixed point of every ETD tableau of ETDRK/Phi.v.
   As in Nonlin/MeanFree.v the suffix _dc means "at the mean mode"; only dc_zero is about dc c of Nonlin/Terms.v, the derivative symbol. *)
From Coq Require Import ZArith Field List.
From EXV Require Import Base.Scalar Base.FieldLemmas Spectral.Symbols Nonlin.Conv Nonlin.Terms ETDRK.Phi Gen.ETDRK ETDRK.Stages.
Local Open Scope fld_scope.

Section MeanPreserved.
  Variable F : FieldT.
  Add Ring Fr : (fring F).
  Variable I : Type.
  Variable k0 : I.
  Variables E Eh c1 c2 c3 c4 c5 c6 : I -> F.
  Variable N : (I -> F) -> (I -> F).
  Hypothesis E_one : E k0 = 1.
  Hypothesis N_zero : forall v, N v k0 = 0.

  Theorem mean_preserved (u : I -> F) :
    etdrk0_step F E u k0 = u k0
    /\ etdrk1_step F E c1 N u k0 = u k0
    /\ etdrk2_step F E c1 c2 N u k0 = u k0
    /\ etdrk3_step F E Eh c1 c2 c3 c4 c5 N u k0 = u k0
    /\ etdrk4_step F E Eh c1 c2 c3 c4 c5 c6 N u k0 = u k0.
  Proof.
    unfold etdrk0_step, etdrk1_step, etdrk2_step, etdrk3_step, etdrk4_step.
    rewrite !N_zero, E_one. repeat split; ring.
  Qed.
End MeanPreserved.

Section OverAField.
  Variable F : FieldT.
  Add Field Ff2 : (fth F).

Section DCTerms.
  Variable P2 : field F -> field F -> field F.
  Variable P3 : field F -> field F -> field F -> field F.
  Variables (ii s : F) (D : nat).
  Variable k0 : idx.
  Hypothesis k0_zero : Forall (fun c => c = 0%Z) k0.

  Lemma nth_all_zero (l : list Z) c : Forall (fun x => x = 0%Z) l -> nth c l 0%Z = 0%Z.
  Proof. intros H. revert c. induction H as [|x l Hx Hl IH]; intros [|c]; cbn; try reflexivity; [exact Hx | apply IH]. Qed.

  Lemma dc_zero c : dc F ii s c k0 = 0.
  Proof. unfold dc. rewrite (nth_all_zero k0 c k0_zero). cbn [fz]. ring. Qed.

  Lemma fsumf_map_zero {A} (g : A -> field F) (l : list A) (k : idx) : (forall a, g a k = 0) -> fsumf F (map g l) k = 0.
  Proof. intros H. unfold fsumf. rewrite map_map. apply fsum_map_all_zero. intros a _. apply H. Qed.

  Lemma fsumf_map2_zero (g : nat -> field F -> field F) ax (us : list (field F)) (k : idx) :
    (forall c u, g c u k = 0) -> fsumf F (map2 g ax us) k = 0.
  Proof.
    intros H. unfold fsumf. revert us. induction ax as [|c ax IH]; intros [|u us]; cbn [map2 map fsum]; try reflexivity.
    rewrite H, IH. ring.
  Qed.

  Lemma nth_map_zero {A} (g : A -> field F) (l : list A) i (k : idx) : (forall a, g a k = 0) -> nth i (map g l) (fzero F) k = 0.
  Proof. intros H. revert i. induction l as [|a l IH]; intros [|i]; cbn [map nth]; try reflexivity; [apply H | apply IH]. Qed.

  (* conservative convection: the derivative stands in front, so the mean-mode coefficient of every channel vanishes *)
  Theorem conv_sc_cons_dc b u : conv_sc_cons F P2 ii s D b u k0 = 0.
  Proof.
    unfold conv_sc_cons, fscal, fmulp. rewrite fsumf_map_zero by (intros c; apply dc_zero). ring.
  Qed.

  Theorem conv_mc_cons_dc b us i : nth i (conv_mc_cons F P2 ii s D b us) (fzero F) k0 = 0.
  Proof.
    unfold conv_mc_cons. apply nth_map_zero. intros ui. unfold fscal.
    rewrite fsumf_map2_zero; [ring|]. intros c u. unfold fmulp. rewrite dc_zero. ring.
  Qed.

  Lemma is_zero_all (k : idx) : Forall (fun c => c = 0%Z) k -> is_zero k = true.
  Proof. unfold is_zero. induction 1 as [|x l Hx _ IH]; cbn [forallb]; [reflexivity | rewrite Hx, IH; reflexivity]. Qed.

  Theorem gradient_norm_dc b u : gradient_norm F P2 ii s D b true u k0 = 0.
  Proof. unfold gradient_norm, fscal. rewrite (is_zero_all k0 k0_zero). ring. Qed.

  Theorem cahn_hilliard_dc sc u : cahn_hilliard F P3 ii s D sc u k0 = 0.
  Proof.
    unfold cahn_hilliard, fscal, fmulp, lap.
    rewrite fsum_map_all_zero; [ring|]. intros c _. rewrite dc_zero. ring.
  Qed.
End DCTerms.

Section DCSymbols.

  Lemma fsum_map2_all_zero {A B} (f : A -> B -> F) (l1 : list A) (l2 : list B) : (forall a b, In b l2 -> f a b = 0) -> fsum (map2 f l1 l2) = 0.
  Proof.
    revert l2. induction l1 as [|a l1 IH]; intros [|b l2] H; cbn [map2 fsum]; try reflexivity.
    rewrite (H a b), IH; [ring | intros x y Hy; apply H; right; exact Hy | left; reflexivity].
  Qed.

  Lemma laplace_dc n (d : list F) : Forall (fun x => x = 0) d -> laplace_sym F (S n) d = 0.
  Proof.
    intros H. apply fsum_map_all_zero. intros x Hx. rewrite (proj1 (Forall_forall _ _) H x Hx). cbn [fpow]. ring.
  Qed.

  Lemma gip_dc v n (d : list F) : Forall (fun x => x = 0) d -> gip_sym F v (S n) d = 0.
  Proof.
    intros H. apply fsum_map2_all_zero. intros vc x Hx. rewrite (proj1 (Forall_forall _ _) H x Hx). cbn [fpow]. ring.
  Qed.

  Lemma quad_form_dc A (d : list F) : Forall (fun x => x = 0) d -> quad_form F A d = 0.
  Proof.
    intros H. apply fsum_map2_all_zero. intros row di _. apply fsum_map2_all_zero. intros a x Hx.
    rewrite (proj1 (Forall_forall _ _) H x Hx). ring.
  Qed.

  Theorem dc_symbols_zero (d : list F) (v xi : list F) (A : list (list F)) (nu mu s2 s4 gam c1 x1 : F) (f1 f2 : bool) :
    Forall (fun x => x = 0) d ->
    sym_advection F v d = 0 /\ sym_diffusion F A d = 0 /\ sym_advection_diffusion F v A d = 0
    /\ sym_dispersion F f1 xi d = 0 /\ sym_hyper_diffusion F f2 mu d = 0 /\ sym_burgers F nu d = 0
    /\ sym_kdv F f1 f2 nu x1 mu d = 0 /\ sym_ks F s2 s4 d = 0 /\ sym_cahn_hilliard F nu gam c1 d = 0
    /\ sym_navier_stokes F nu 0 d = 0.
  Proof.
    intros H.
    unfold sym_advection, sym_diffusion, sym_advection_diffusion, sym_dispersion, sym_hyper_diffusion, sym_burgers, sym_kdv, sym_ks,
      sym_cahn_hilliard, sym_navier_stokes.
    rewrite ?(laplace_dc 1 d H), ?(laplace_dc 3 d H), ?(gip_dc _ 0 d H), ?(gip_dc _ 2 d H), ?(quad_form_dc _ d H).
    repeat split; try ring; [destruct f1 | destruct f2 | destruct f1, f2]; ring.
  Qed.
End DCSymbols.

Section FixedPoints.
  Variable I : Type.
  Variable h : F.
  Variables lam E Eh : I -> F.
  Variable N : (I -> F) -> (I -> F).
  Hypothesis N_ext : forall u v, (forall k, u k = v k) -> forall k, N u k = N v k.
  Let z := fun k => h * lam k.
  Variable ustar : I -> F.
  Hypothesis equilibrium : forall k, lam k * ustar k + N ustar k = 0.
  (* where the symbol vanishes the propagators are 1 (exp 0 = 1) *)
  Hypothesis E_at_zero : forall k, z k = 0 -> E k = 1 /\ Eh k = 1.

  Lemma N_star k : N ustar k = - lam k * ustar k.
  Proof. transitivity (lam k * ustar k + N ustar k - lam k * ustar k); [ring | rewrite equilibrium; ring]. Qed.

  Lemma at_zero_symbol k : z k = 0 -> N ustar k = 0 \/ h = 0.
  Proof.
    intros Hz. unfold z in Hz. apply (fmul_eq0 F) in Hz. destruct Hz as [Hh|Hl]; [right; exact Hh|].
    left. rewrite N_star, Hl. ring.
  Qed.

  Lemma stage_full k : E k * ustar k + h * (phi1 (z k) (E k) * N ustar k) = ustar k.
  Proof.
    destruct (feq_dec F (z k) 0) as [Hz|Hz].
    - destruct (E_at_zero k Hz) as [HE _]. rewrite HE. destruct (at_zero_symbol k Hz) as [HN|Hh]; [rewrite HN | rewrite Hh]; ring.
    - rewrite N_star. unfold phi1, phi0. unfold z in *. field. split; intro E0; apply Hz; rewrite E0; ring.
  Qed.

  Lemma stage_half k : Eh k * ustar k + h * (phi1 (half (z k)) (Eh k) / fz 2 * N ustar k) = ustar k.
  Proof.
    destruct (feq_dec F (z k) 0) as [Hz|Hz].
    - destruct (E_at_zero k Hz) as [_ HE]. rewrite HE. destruct (at_zero_symbol k Hz) as [HN|Hh]; [rewrite HN | rewrite Hh]; ring.
    - rewrite N_star. unfold phi1, phi0, half. unfold z in *. cbn [fz fpos]. field.
      repeat split; try exact (two_neq0 F); intro E0; apply Hz; rewrite E0; ring.
  Qed.

  (* every stage state is the equilibrium itself, so N returns N ustar at every stage: the rows reduce to stage_full and
     stage_half, the last row to stage_full because the weights sum to phi_1 *)
  Let at_rest (v : I -> F) : Prop := forall k, v k = ustar k.
  Let N_at_rest (a : I -> F) : Prop := forall k, a k = N ustar k.

  Theorem etd1_fixed_point k : etd1 h z E N ustar k = ustar k.
  Proof. unfold etd1. apply stage_full. Qed.

  Theorem etd2rk_fixed_point k : etd2rk h z E N ustar k = ustar k.
  Proof.
    rewrite etd2rk_run. revert k.
    apply (run_inv N ustar at_rest N_at_rest at_rest); [exact (fun v => N_ext v ustar) | intros ?; reflexivity | ..]; inv_rows.
    - apply stage_full.
    - etransitivity; [|apply stage_full]. ring.
  Qed.

  Theorem etd3rk_fixed_point k : etd3rk h z E Eh N ustar k = ustar k.
  Proof.
    rewrite etd3rk_run. revert k.
    apply (run_inv N ustar at_rest N_at_rest at_rest); [exact (fun v => N_ext v ustar) | intros ?; reflexivity | ..]; inv_rows.
    - apply stage_half.
    - etransitivity; [|apply stage_full]. cbn [fz fpos]. ring.
    - etransitivity; [|apply stage_full]. cbn [fz fpos]. ring.
  Qed.

  Theorem etd4rk_fixed_point k : etd4rk h z E Eh N ustar k = ustar k.
  Proof.
    rewrite etd4rk_run. revert k.
    apply (run_inv N ustar at_rest N_at_rest at_rest); [exact (fun v => N_ext v ustar) | intros ?; reflexivity | ..]; inv_rows.
    - apply stage_half.
    - apply stage_half.
    - rewrite stage_half. etransitivity; [|apply stage_half]. cbn [fz fpos]. ring.
    - etransitivity; [|apply stage_full]. cbn [fz fpos]. ring.
  Qed.
End FixedPoints.
End OverAField.
