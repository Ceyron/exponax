(* The real numbers of Coq's standard library as a FieldT (formally real), used ONLY for non-vacuity Examples whose
   hypotheses need irrational numbers (e.g. a primitive 8th root of unity needs sqrt 2).  Equality on R is decided
   classically (Req_EM_T); nothing here is extracted or executed. *)
From Coq Require Import Reals Lra.
From EXV Require Import Base.Scalar Base.Cplx.
Local Open Scope R_scope.

Definition Reqb (x y : R) : bool := if Req_EM_T x y then true else false.
Definition ROps : Ops := mkOps 0 1 Rplus Rmult Rminus Ropp Rdiv Rinv Reqb.

Lemma Reqb_ok (x y : R) : Reqb x y = true <-> x = y.
Proof. unfold Reqb. destruct (Req_EM_T x y); split; congruence. Qed.

Lemma R_fpos_pos (p : positive) : 0 < @fpos ROps p.
Proof. induction p as [p IH|p IH|]; cbn [fpos ROps o1 oadd omul] in *; lra. Qed.

Lemma R_char0 (p : positive) : @fpos ROps p <> @o0 ROps.
Proof. pose proof (R_fpos_pos p). cbn [ROps o0]. lra. Qed.

Definition RField : FieldT := mkFieldT ROps Rfield Reqb_ok R_char0.

Lemma R_formally_real : FormallyReal RField.
Proof.
  intros x y H. apply Rplus_sqr_eq_0. exact H.
Qed.

Definition RC : FieldT := CField R_formally_real.

(* w = (sqrt 2 / 2)(1 + i) is a primitive 8th root of unity: w^4 = -1 *)
Definition w8 : RC := mkcx (sqrt 2 / 2) (sqrt 2 / 2).
Lemma w8_pow4 : @fpow RC w8 4 = @oopp RC (@o1 RC).
Proof.
  assert (H : sqrt 2 * sqrt 2 = 2) by (apply sqrt_sqrt; lra).
  apply cx_ext; cbn; nra.
Qed.

(* the complex exponential on R(i): exponential law and exp(i pi) = -1 *)
Definition rcexp (z : RC) : RC := mkcx (exp (re z) * cos (im z)) (exp (re z) * sin (im z)).
Definition rc_pi : RC := mkcx PI 0.

Lemma rcexp_add (a b : RC) : rcexp (@oadd RC a b) = @omul RC (rcexp a) (rcexp b).
Proof.
  destruct a as [x y], b as [u v]. apply cx_ext; cbn; rewrite exp_plus; [rewrite cos_plus | rewrite sin_plus]; ring.
Qed.
Lemma rcexp_0 : rcexp (@o0 RC) = @o1 RC.
Proof. apply cx_ext; cbn; rewrite exp_0; [rewrite cos_0 | rewrite sin_0]; ring. Qed.
Lemma rcexp_ipi : rcexp (@omul RC ci rc_pi) = @oopp RC (@o1 RC).
Proof.
  replace (@omul RC ci rc_pi) with (mkcx 0 PI : RC) by (apply cx_ext; cbn; ring).
  apply cx_ext; cbn; rewrite exp_0; [rewrite cos_PI | rewrite sin_PI]; ring.
Qed.
