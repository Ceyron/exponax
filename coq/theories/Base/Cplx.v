(* Complex numbers over any Ops; a FieldT when the base field is formally real. *)
From Coq Require Import QArith Qcanon List Lia.
From EXV Require Import Base.Scalar Base.FieldLemmas.
Local Open Scope fld_scope.
Set Implicit Arguments.

Record cx (K : Type) := mkcx { re : K; im : K }.
Arguments mkcx {K} _ _. Arguments re {K} _. Arguments im {K} _.

Section CplxOps.
  Variable K : Ops.
  Definition c0 : cx K := mkcx 0 0.
  Definition c1 : cx K := mkcx 1 0.
  Definition ci : cx K := mkcx 0 1.
  Definition cadd (a b : cx K) := mkcx (re a + re b) (im a + im b).
  Definition csub (a b : cx K) := mkcx (re a - re b) (im a - im b).
  Definition copp (a : cx K) := mkcx (- re a) (- im a).
  Definition cmul (a b : cx K) := mkcx (re a * re b - im a * im b) (re a * im b + im a * re b).
  Definition cnorm2 (a : cx K) : K := re a * re a + im a * im a.
  Definition cconj (a : cx K) := mkcx (re a) (- im a).
  Definition cinv (a : cx K) := mkcx (re a / cnorm2 a) (- im a / cnorm2 a).
  Definition cdiv (a b : cx K) := cmul a (cinv b).
  Definition ceqb (a b : cx K) := oeqb (re a) (re b) && oeqb (im a) (im b).
  Definition cofr (x : K) : cx K := mkcx x 0.
  Definition cscal (x : K) (a : cx K) := mkcx (x * re a) (x * im a).
  Definition COps : Ops := mkOps c0 c1 cadd cmul csub copp cdiv cinv ceqb.
End CplxOps.
Arguments ci {K}. Arguments cofr {K} x. Arguments cconj {K} a. Arguments cnorm2 {K} a.
Arguments cscal {K} x a. Arguments cadd {K} a b. Arguments csub {K} a b. Arguments cmul {K} a b.
Arguments copp {K} a. Arguments cinv {K} a. Arguments cdiv {K} a b. Arguments ceqb {K} a b.

Lemma cx_ext {K} (a b : cx K) : re a = re b -> im a = im b -> a = b.
Proof. destruct a, b; cbn; intros -> ->; reflexivity. Qed.

Definition FormallyReal (F : FieldT) : Prop :=
  forall x y : F, x * x + y * y = 0 -> x = 0 /\ y = 0.

Section CplxField.
  Variable F : FieldT.
  Hypothesis FR : FormallyReal F.
  Add Field Ffield2 : (fth F).

  Lemma cnorm2_neq0 (a : cx F) : a <> c0 F -> cnorm2 a <> 0.
  Proof.
    intros Ha H. apply Ha. destruct (FR _ _ H) as [H1 H2].
    apply cx_ext; cbn; assumption.
  Qed.

  Lemma C_ring : ring_theory (c0 F) (c1 F) (@cadd F) (@cmul F) (@csub F) (@copp F) eq.
  Proof. constructor; intros; apply cx_ext; cbn; ring. Qed.

  Lemma C_field : field_theory (c0 F) (c1 F) (@cadd F) (@cmul F) (@csub F) (@copp F)
                               (@cdiv F) (@cinv F) eq.
  Proof.
    constructor.
    - exact C_ring.
    - intro H. apply (f_equal re) in H. cbn in H. exact (f_1_neq_0 F H).
    - reflexivity.
    - intros p Hp. assert (Hn := cnorm2_neq0 Hp). apply cx_ext; cbn; unfold cnorm2 in *; field; exact Hn.
  Qed.

  Lemma C_eqb_ok (x y : cx F) : ceqb x y = true <-> x = y.
  Proof.
    unfold ceqb. rewrite andb_true_iff, !feqb_ok. split.
    - intros [H1 H2]. apply cx_ext; assumption.
    - intros ->. split; reflexivity.
  Qed.

  Lemma C_fpos (p : positive) : @fpos (COps F) p = cofr (@fpos F p).
  Proof.
    induction p as [p IH|p IH|]; cbn [fpos]; try rewrite IH; apply cx_ext; cbn; ring.
  Qed.

  Lemma C_char0 (p : positive) : @fpos (COps F) p <> @o0 (COps F).
  Proof.
    rewrite C_fpos. intro H. apply (f_equal re) in H. cbn in H. exact (fchar0 F p H).
  Qed.

  Definition CField : FieldT := mkFieldT (COps F) C_field C_eqb_ok C_char0.

  Lemma ci_sq : @omul (COps F) ci ci = @oopp (COps F) 1.
  Proof. apply cx_ext; cbn; ring. Qed.
End CplxField.

(* Identities of complex arithmetic that hold without [FormallyReal F]. *)
Section CplxLemmas.
  Variable F : FieldT.
  Add Ring Ffield3 : (fring F).
  Notation C := (COps F).
  Implicit Types a b z : cx F.

  Lemma cmul_c0_l z : cmul (c0 F) z = c0 F.
  Proof. apply cx_ext; cbn; ring. Qed.
  Lemma cmul_c1_r z : cmul z (c1 F) = z.
  Proof. apply cx_ext; cbn; ring. Qed.

  Lemma re_fsum (l : list (cx F)) : re (@fsum C l) = fsum (map re l).
  Proof. induction l as [|z l IH]; cbn [fsum map]; [reflexivity | rewrite <- IH; reflexivity]. Qed.
  Lemma im_fsum (l : list (cx F)) : im (@fsum C l) = fsum (map im l).
  Proof. induction l as [|z l IH]; cbn [fsum map]; [reflexivity | rewrite <- IH; reflexivity]. Qed.

  Lemma C_fz (k : Z) : @fz C k = cofr (@fz F k).
  Proof. destruct k; cbn [fz]; [reflexivity | apply C_fpos | rewrite C_fpos; apply cx_ext; cbn; ring]. Qed.
  Lemma cpow_real (x : F) n : @fpow C (cofr x) n = cofr (fpow x n).
  Proof. induction n as [|n IH]; cbn [fpow]; [reflexivity | rewrite IH; apply cx_ext; cbn; ring]. Qed.

  Lemma cnorm2_c0 : cnorm2 (c0 F) = 0.
  Proof. unfold cnorm2. cbn. ring. Qed.
  Lemma cnorm2_cmul a b : cnorm2 (cmul a b) = cnorm2 a * cnorm2 b.
  Proof. unfold cnorm2. cbn. ring. Qed.
  Lemma cnorm2_fpow z n : cnorm2 (@fpow C z n) = fpow (cnorm2 z) n.
  Proof.
    induction n as [|n IH]; cbn [fpow]; [unfold cnorm2; cbn; ring|].
    change (@omul C z ?y) with (cmul z y). rewrite cnorm2_cmul, IH. reflexivity.
  Qed.

  Lemma cconj_mul a b : cconj (cmul a b) = cmul (cconj a) (cconj b).
  Proof. apply cx_ext; cbn; ring. Qed.
  Lemma cconj_fsum (l : list (cx F)) : cconj (@fsum C l) = @fsum C (map cconj l).
  Proof. induction l as [|z l IH]; cbn [fsum map]; [|rewrite <- IH]; apply cx_ext; cbn; ring. Qed.
  Lemma cconj_fpow z n : cconj (@fpow C z n) = @fpow C (cconj z) n.
  Proof.
    induction n as [|n IH]; cbn [fpow]; [apply cx_ext; cbn; ring|].
    change (@omul C ?x ?y) with (cmul x y). rewrite cconj_mul, IH. reflexivity.
  Qed.
  Lemma cmul_cconj z : cmul z (cconj z) = cofr (cnorm2 z).
  Proof. apply cx_ext; unfold cnorm2; cbn; ring. Qed.
  Lemma cnorm2_conj z : cnorm2 (cconj z) = cnorm2 z.
  Proof. unfold cnorm2; cbn; ring. Qed.
End CplxLemmas.

Lemma Qc_sq_nonneg (y : Qc) : (0 <= y * y)%Qc.
Proof.
  unfold Qcle. change (this (y * y)%Qc) with (Qred (this y * this y)). rewrite Qred_correct. change (this 0%Qc) with 0%Q.
  (* for y = a / b the inequality of the numerators reads 0 <= a * a *)
  destruct (this y) as [a b]. unfold Qle, Qmult. cbn. nia.
Qed.

Lemma Qc_sum_sq_nonneg (l : list Qc) : (0 <= @fsum QcOps (map (fun y => y * y) l))%Qc.
Proof.
  induction l as [|y m IH]; cbn [map fsum]; [apply Qcle_refl|].
  rewrite <- (Qcplus_0_l 0). apply Qcplus_le_compat; [apply Qc_sq_nonneg | exact IH].
Qed.

(* a sum of non-negative terms that vanishes has a vanishing tail, hence a vanishing head *)
Lemma Qc_sum_sq_zero (l : list Qc) : @fsum QcOps (map (fun y => y * y)%Qc l) = 0%Qc -> Forall (fun y => y = 0%Qc) l.
Proof.
  induction l as [|y m IH]; cbn [map fsum]; intros H; [constructor|].
  set (S := @fsum QcOps (map (fun z => z * z)%Qc m)) in *. assert (E : (y * y + S = 0)%Qc) by exact H.
  assert (Hm : S = 0%Qc).
  { apply Qcle_antisym; [|apply Qc_sum_sq_nonneg].
    pose proof (Qcplus_le_compat _ _ _ _ (Qc_sq_nonneg y) (Qcle_refl S)) as L. rewrite Qcplus_0_l, E in L. exact L. }
  rewrite Hm, Qcplus_0_r in E. constructor; [|exact (IH Hm)]. destruct (Qcmult_integral y y E); assumption.
Qed.

Lemma Qc_formally_real : FormallyReal QcField.
Proof.
  intros x y H. assert (E : Forall (fun z => z = 0%Qc) (x :: y :: nil)).
  { apply Qc_sum_sq_zero. cbn [map fsum]. rewrite Qcplus_0_r. exact H. }
  inversion E as [|? ? Hx E']. inversion E' as [|? ? Hy _]. split; assumption.
Qed.

Definition QcC : FieldT := CField Qc_formally_real.
