(* Dual numbers over a field: every model function takes [K : Ops] only, so it runs on [DualOps F] unchanged, and the eps-part
   of the result is its algebraic derivative.  This file proves that reading right: the rules of forward mode, soundness for
   polynomial expressions, the chain rule through compositions and iterates. *)
From Coq Require Import ZArith Field List.
From EXV Require Import Base.Scalar Base.FieldLemmas Base.Dual Utils.Rollout.
Local Open Scope fld_scope.

Lemma dual_ext {K} (a b : dual K) : val a = val b -> eps a = eps b -> a = b.
Proof. destruct a, b; cbn; intros -> ->; reflexivity. Qed.

(* an identity between dual numbers built from + - * and constants: a ring identity in each part ([ring] of the calling section) *)
Ltac dual_ring := intros; apply dual_ext; cbn; first [reflexivity | ring].

Create HintDb dlin discriminated.
#[global] Hint Constants Opaque : dlin.

Section DualField.
  Variable F : FieldT.
  Add Field Ffd : (fth F).
  Notation DF := (DualOps F).
  Implicit Types a b : DF.
  Implicit Types x y : F.

  Lemma dual_ring_theory : ring_theory (@o0 DF) (@o1 DF) (@oadd DF) (@omul DF) (@osub DF) (@oopp DF) eq.
  Proof. constructor; dual_ring. Qed.

  Lemma val_add a b : val (a + b) = val a + val b. Proof. reflexivity. Qed.
  Lemma eps_add a b : eps (a + b) = eps a + eps b. Proof. reflexivity. Qed.
  Lemma val_sub a b : val (a - b) = val a - val b. Proof. reflexivity. Qed.
  Lemma eps_sub a b : eps (a - b) = eps a - eps b. Proof. reflexivity. Qed.
  Lemma val_mul a b : val (a * b) = val a * val b. Proof. reflexivity. Qed.
  Lemma eps_mul a b : eps (a * b) = eps a * val b + val a * eps b. Proof. reflexivity. Qed.
  Lemma val_div a b : val (a / b) = val a / val b. Proof. reflexivity. Qed.
  Lemma eps_div a b : eps (a / b) = (eps a * val b - val a * eps b) / (val b * val b). Proof. reflexivity. Qed.

  (* the quotient rule is the right one: a / b is the solution of b * q = a whenever the VALUE of b is invertible *)
  Lemma ddiv_ok a b : val b <> 0 -> b * (a / b) = a.
  Proof. intros H. apply dual_ext; cbn; field; exact H. Qed.
  Lemma dinv_ok a : val a <> 0 -> a * oinv a = 1.
  Proof. intros H. apply dual_ext; cbn; field; exact H. Qed.
  Lemma ddiv_unique a b q : val b <> 0 -> b * q = a -> q = a / b.
  Proof. intros H <-. apply dual_ext; cbn; field; exact H. Qed.

  Lemma dconst_add x y : dconst (x + y) = ((dconst x : DF) + dconst y). Proof. dual_ring. Qed.
  Lemma dconst_sub x y : dconst (x - y) = ((dconst x : DF) - dconst y). Proof. dual_ring. Qed.
  Lemma dconst_mul x y : dconst (x * y) = ((dconst x : DF) * dconst y). Proof. dual_ring. Qed.
  Lemma dconst_opp x : dconst (- x) = (- (dconst x : DF)). Proof. dual_ring. Qed.
  Lemma dconst_div x y : ((dconst x : DF) / dconst y) = dconst (x / y).
  Proof. apply dual_ext; cbn; [reflexivity|]. rewrite fdiv_def. ring. Qed.
  Lemma dconst_inv x : (oinv (dconst x : DF)) = dconst (oinv x).
  Proof. apply dual_ext; cbn; [reflexivity|]. rewrite fdiv_def. ring. Qed.
  Lemma dconst_scal x a : ((dconst x : DF) * a) = mkdual (x * val a) (x * eps a).
  Proof. dual_ring. Qed.

  Lemma dual_fpos p : @fpos DF p = dconst (fpos p).
  Proof. induction p as [p IH|p IH|]; cbn [fpos]; try rewrite IH; dual_ring. Qed.
  Lemma dual_fz z : @fz DF z = dconst (fz z).
  Proof. destruct z; cbn [fz]; try rewrite dual_fpos; dual_ring. Qed.
  Lemma dual_fpow_const x n : @fpow DF (dconst x) n = dconst (fpow x n).
  Proof. induction n as [|n IH]; cbn [fpow]; [reflexivity | rewrite IH; dual_ring]. Qed.
  Lemma dual_fq q : @fq DF q = dconst (fq q).
  Proof. unfold fq. rewrite dual_fz, dual_fpos. apply dconst_div. Qed.

  Lemma val_fpow a n : val (fpow a n) = fpow (val a) n.
  Proof. induction n as [|n IH]; cbn [fpow]; [reflexivity | rewrite val_mul, IH; reflexivity]. Qed.
  Lemma eps_fpow a n : eps (fpow a (S n)) = fz (Z.of_nat (S n)) * fpow (val a) n * eps a.
  Proof.
    induction n as [|n IH].
    - cbn. ring.
    - change (fpow a (S (S n))) with (a * fpow a (S n)). rewrite eps_mul, IH, val_fpow.
      rewrite (Nat2Z.inj_succ (S n)). unfold Z.succ. rewrite fz_add. cbn [fpow fz fpos]. ring.
  Qed.
  Lemma eps_fpow0 a : eps (fpow a 0) = 0. Proof. reflexivity. Qed.

  Lemma val_fsum (l : list DF) : val (fsum l) = fsum (map val l).
  Proof. induction l as [|a l IH]; cbn [fsum map]; [reflexivity | rewrite val_add, IH; reflexivity]. Qed.
  Lemma eps_fsum (l : list DF) : eps (fsum l) = fsum (map eps l).
  Proof. induction l as [|a l IH]; cbn [fsum map]; [reflexivity | rewrite eps_add, IH; reflexivity]. Qed.
  Lemma dual_fsum_map {A} (l : list A) (f : A -> DF) :
    fsum (map f l) = mkdual (fsum (map (fun t => val (f t)) l)) (fsum (map (fun t => eps (f t)) l)).
  Proof. apply dual_ext; cbn [val eps]; [rewrite val_fsum | rewrite eps_fsum]; rewrite map_map; reflexivity. Qed.
  Lemma val_fprod (l : list DF) : val (fprod l) = fprod (map val l).
  Proof. induction l as [|a l IH]; cbn [fprod map]; [reflexivity | rewrite val_mul, IH; reflexivity]. Qed.

  (* exact first-order Taylor expansion in the dual ring: f(x + eps v) = f(x) + eps Df(x)[v], Df the formal derivative *)
  Theorem dual_sound (e : pexpr F) (x v : nat -> F) :
    peval (K' := DF) dconst (fun i => mkdual (x i) (v i)) e
    = mkdual (peval (K' := F) (fun c => c) x e) (pderiv F x v e).
  Proof.
    induction e as [i|c|a IHa b IHb|a IHa b IHb|a IHa b IHb|a IHa|a IHa n]; cbn [peval pderiv].
    - reflexivity.
    - reflexivity.
    - rewrite IHa, IHb. dual_ring.
    - rewrite IHa, IHb. dual_ring.
    - rewrite IHa, IHb. dual_ring.
    - rewrite IHa. dual_ring.
    - rewrite IHa. destruct n as [|m].
      + reflexivity.
      + apply dual_ext; [apply val_fpow | apply eps_fpow].
  Qed.

  Lemma pderiv_add (e : pexpr F) (x v w : nat -> F) :
    pderiv F x (fun i => v i + w i) e = pderiv F x v e + pderiv F x w e.
  Proof.
    induction e as [i|c|a IHa b IHb|a IHa b IHb|a IHa b IHb|a IHa|a IHa n]; cbn [pderiv]; try rewrite IHa; try rewrite IHb; try ring.
    destruct n; ring.
  Qed.
  Lemma pderiv_scal (e : pexpr F) (x v : nat -> F) (h : F) :
    pderiv F x (fun i => h * v i) e = h * pderiv F x v e.
  Proof.
    induction e as [i|c|a IHa b IHb|a IHa b IHb|a IHa b IHb|a IHa|a IHa n]; cbn [pderiv]; try rewrite IHa; try rewrite IHb; try ring.
    destruct n; ring.
  Qed.

  (* the dual lift of a function satisfying the exponential law satisfies it again *)
  Section Exp.
    Variable cexp : F -> F.
    Hypothesis cexp_add : forall x y, cexp (x + y) = cexp x * cexp y.
    Hypothesis cexp_0 : cexp 0 = 1.
    Definition dexp : DF -> DF := dlift cexp cexp.
    Lemma dexp_add a b : dexp (a + b) = dexp a * dexp b.
    Proof. unfold dexp, dlift. apply dual_ext; cbn; rewrite cexp_add; ring. Qed.
    Lemma dexp_0 : dexp 0 = 1.
    Proof. unfold dexp, dlift. apply dual_ext; cbn; [exact cexp_0 | ring]. Qed.
    Lemma dexp_const x : dexp (dconst x) = dconst (cexp x).
    Proof. unfold dexp, dlift. dual_ring. Qed.
    Lemma dexp_dt t lam : dexp ((dvar t : DF) * dconst lam) = mkdual (cexp (t * lam)) (lam * cexp (t * lam)).
    Proof. unfold dexp, dlift, dvar. apply dual_ext; cbn; [reflexivity | ring]. Qed.
  End Exp.

  Section Chain.
    Variable I : Type.
    Notation St := (I -> F).
    Notation DSt := (I -> DF).
    (* fD is the dual-number evaluation of f, Df its directional derivative *)
    Definition dual_deriv (fD : DSt -> DSt) (f : St -> St) (Df : St -> St -> St) : Prop :=
      forall u v k, fD (lift u v) k = mkdual (f u k) (Df u v k).
    Definition ext_fun {A B} (g : (I -> A) -> (I -> B)) : Prop :=
      forall p q, (forall k, p k = q k) -> forall k, g p k = g q k.

    Definition tangent (pD : DSt) (p dp : St) : Prop := forall k, pD k = mkdual (p k) (dp k).

    Lemma dual_deriv_at fD f Df : dual_deriv fD f Df -> ext_fun fD ->
      forall pD p dp, tangent pD p dp -> tangent (fD pD) (f p) (Df p dp).
    Proof. intros Hf Ef pD p dp H k. rewrite <- Hf. apply Ef. exact H. Qed.

    Lemma dual_chain fD f Df gD g Dg :
      dual_deriv fD f Df -> dual_deriv gD g Dg -> ext_fun gD ->
      dual_deriv (fun p => gD (fD p)) (fun u => g (f u)) (fun u v => Dg (f u) (Df u v)).
    Proof. intros Hf Hg Eg u v. apply (dual_deriv_at _ _ _ Hg Eg). exact (Hf u v). Qed.

    (* derivative of the n-fold iterate [iter n f u] of Utils/Rollout.v (= repeat, = entry n-1 of rollout; C14):
       the product of the Jacobians along the trajectory *)
    Fixpoint Diter (n : nat) (f : St -> St) (Df : St -> St -> St) (u v : St) : St :=
      match n with O => v | S m => Df (iter m f u) (Diter m f Df u v) end.

    Lemma dual_iter fD f Df : dual_deriv fD f Df -> ext_fun fD ->
      forall n, dual_deriv (iter n fD) (iter n f) (Diter n f Df).
    Proof.
      intros Hf Ef n. induction n as [|n IH]; intros u v; cbn [iter Diter].
      - intros k. reflexivity.
      - apply (dual_deriv_at _ _ _ Hf Ef). exact (IH u v).
    Qed.

    Lemma Diter_linear n f (L : St -> St) u v : Diter n f (fun _ => L) u v = iter n L v.
    Proof. induction n as [|n IH]; cbn [iter Diter]; [reflexivity | rewrite IH; reflexivity]. Qed.
  End Chain.

  (* [dlin]: rules that derive, for a term e over the dual numbers,  e = dconst x  (e is the constant x) or  e = mkdual p q
     (e has value p and derivative q) from the same kind of fact about the immediate subterms of e.  Each rule consumes the head
     symbol of e, and the form of the right-hand side decides between the two rules for a product, so [auto n with dlin] does not
     search: it follows the syntax of e, and n only has to exceed its depth.  The database is discriminated and holds all
     constants opaque, so that at a node only the rule of its head symbol is tried; on a long term, [nocore] keeps the hints of
     [core] from being tried at every node as well ([eq_refl], for the leaves, is therefore among the rules).
     Constants are closed under the field operations;
     sums, differences, constant multiples and quotients by nonzero constants act on the two parts separately, with no product
     rule: this is why a map that is linear in the state with constant coefficients is its own Jacobian. *)
  Implicit Types c : DF.
  Implicit Types p q : F.
  Lemma const_add a b x y : a = dconst x -> b = dconst y -> a + b = dconst (x + y).
  Proof. intros -> ->. symmetry. apply dconst_add. Qed.
  Lemma const_sub a b x y : a = dconst x -> b = dconst y -> a - b = dconst (x - y).
  Proof. intros -> ->. symmetry. apply dconst_sub. Qed.
  Lemma const_mul a b x y : a = dconst x -> b = dconst y -> a * b = dconst (x * y).
  Proof. intros -> ->. symmetry. apply dconst_mul. Qed.
  Lemma const_opp a x : a = dconst x -> - a = dconst (- x).
  Proof. intros ->. symmetry. apply dconst_opp. Qed.
  Lemma const_div a b x y : a = dconst x -> b = dconst y -> a / b = dconst (x / y).
  Proof. intros -> ->. apply dconst_div. Qed.
  Lemma pair_add a b p q p' q' : a = mkdual p q -> b = mkdual p' q' -> a + b = mkdual (p + p') (q + q').
  Proof. intros -> ->. reflexivity. Qed.
  Lemma pair_sub a b p q p' q' : a = mkdual p q -> b = mkdual p' q' -> a - b = mkdual (p - p') (q - q').
  Proof. intros -> ->. reflexivity. Qed.
  Lemma pair_scal c a x p q : c = dconst x -> a = mkdual p q -> c * a = mkdual (x * p) (x * q).
  Proof. intros -> ->. apply dconst_scal. Qed.
  Lemma pair_div c a x p q : x <> 0 -> a = mkdual p q -> c = dconst x -> a / c = mkdual (p / x) (q / x).
  Proof. intros Hx -> ->. apply dual_ext; cbn; [reflexivity | field; exact Hx]. Qed.
End DualField.
#[global] Hint Resolve eq_refl const_add const_sub const_mul const_opp const_div dual_fz pair_add pair_sub pair_scal pair_div : dlin.
