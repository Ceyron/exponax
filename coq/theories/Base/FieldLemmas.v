(* An abstract field of characteristic 0: cancellation, powers, the integer injection fz as a ring morphism, finite sums over lists
   (with the few facts about duplicate-free lists and index sets that re-indexing a sum needs); the Qc instance. *)
From Coq Require Import QArith Qcanon List Lia Permutation.
From EXV Require Import Base.Scalar.
Local Open Scope fld_scope.

(* splits a conjunction of any length into its conjuncts and nothing else (iffs and equalities stay whole) *)
Ltac splits := repeat match goal with |- _ /\ _ => split end.

(* two facts about duplicate-free lists that the standard library of 8.16 lacks *)
Lemma NoDup_app_disj {A} (l l' : list A) : NoDup l -> NoDup l' -> (forall x, In x l -> ~ In x l') -> NoDup (l ++ l').
Proof.
  intros H H' Hd. induction H as [|a l Ha H IH]; cbn [app]; [exact H'|]. constructor.
  - rewrite in_app_iff. intros [Hi|Hi]; [contradiction | apply (Hd a); [left; reflexivity | exact Hi]].
  - apply IH. intros x Hx. apply Hd. right. exact Hx.
Qed.

Lemma NoDup_map_in {A B} (f : A -> B) (l : list A) :
  (forall x y, In x l -> In y l -> f x = f y -> x = y) -> NoDup l -> NoDup (map f l).
Proof.
  intros Hinj H. induction H as [|a l Ha H IH]; cbn [map]; constructor.
  - rewrite in_map_iff. intros (x & E & Hx). apply Hinj in E; [subst; contradiction | right; exact Hx | left; reflexivity].
  - apply IH. intros x y Hx Hy. apply Hinj; right; assumption.
Qed.

(* one more axis on an index set: every a of l in front of every r of L *)
Section ConsProduct.
  Context {A : Type}.
  Lemma in_cons_product (l : list A) (L : list (list A)) a r : In (a :: r) (flat_map (fun a => map (cons a) L) l) <-> In a l /\ In r L.
  Proof.
    rewrite in_flat_map. split.
    - intros (a' & Ha & H). apply in_map_iff in H. destruct H as (r' & E & Hr). injection E as -> ->. tauto.
    - intros [Ha Hr]. exists a. split; [exact Ha | apply in_map, Hr].
  Qed.
  Lemma nil_cons_product (l : list A) (L : list (list A)) : ~ In nil (flat_map (fun a => map (cons a) L) l).
  Proof. rewrite in_flat_map. intros (a & _ & H). apply in_map_iff in H. destruct H as (r & E & _). discriminate. Qed.
  Lemma NoDup_cons_product (l : list A) (L : list (list A)) : NoDup l -> NoDup L -> NoDup (flat_map (fun a => map (cons a) L) l).
  Proof.
    intros Hl HL. induction Hl as [|c l Hc Hl IH]; cbn [flat_map]; [constructor|].
    apply NoDup_app_disj; [| exact IH |].
    - apply FinFun.Injective_map_NoDup; [intros a b H; injection H; auto | exact HL].
    - intros x Hx Hx'. apply in_map_iff in Hx. destruct Hx as (r & <- & _). apply in_cons_product in Hx'. tauto.
  Qed.
End ConsProduct.

(* the ring part of the field structure: a section that only calls ring declares `Add Ring r : (fring F)`, which is much cheaper to
   declare than `Add Field` and makes each ring proof cheaper to check *)
Definition fring (F : FieldT) := F_R (fth F).

Section FieldLemmas.
  Variable F : FieldT.
  Add Field Ffield : (fth F).
  Implicit Types x y z : F.

  Lemma f_1_neq_0 : (1 : F) <> 0.
  Proof. exact (F_1_neq_0 (fth F)). Qed.

  Lemma feqb_refl x : oeqb x x = true.
  Proof. apply feqb_ok; reflexivity. Qed.

  Lemma feqb_false x y : oeqb x y = false <-> x <> y.
  Proof.
    split.
    - intros E H. apply feqb_ok in H. congruence.
    - intros H. destruct (oeqb x y) eqn:E; [apply feqb_ok in E; contradiction|reflexivity].
  Qed.

  Lemma feq_dec x y : {x = y} + {x <> y}.
  Proof. destruct (oeqb x y) eqn:E; [left; apply feqb_ok | right; apply feqb_false]; exact E. Qed.

  Lemma fmul_eq0 x y : x * y = 0 -> x = 0 \/ y = 0.
  Proof.
    intros H. destruct (feq_dec x 0) as [Hx|Hx]; [left; exact Hx | right].
    transitivity (oinv x * (x * y)); [field; exact Hx | rewrite H; ring].
  Qed.

  Lemma fmul_neq0 x y : x <> 0 -> y <> 0 -> x * y <> 0.
  Proof. intros Hx Hy H. destruct (fmul_eq0 _ _ H); contradiction. Qed.

  Lemma fsub_eq0 x y : x - y = 0 -> x = y.
  Proof. intros H. transitivity (x - y + y); [ring | rewrite H; ring]. Qed.

  Lemma fopp_eq0 x : - x = 0 -> x = 0.
  Proof. intros H. transitivity (- - x); [ring | rewrite H; ring]. Qed.

  Lemma finv_neq0 x : x <> 0 -> oinv x <> 0.
  Proof.
    intros Hx H. apply f_1_neq_0. transitivity (x * oinv x); [field; exact Hx | rewrite H; ring].
  Qed.

  Lemma fdiv_def x y : x / y = x * oinv y.
  Proof. exact (Fdiv_def (fth F) x y). Qed.

  Lemma fmul_cancel_l x y z : x <> 0 -> x * y = x * z -> y = z.
  Proof.
    intros Hx H. transitivity (oinv x * (x * y)); [field; exact Hx|].
    rewrite H. field. exact Hx.
  Qed.

  Lemma two_neq0 : (two : F) <> 0.
  Proof. intro H. apply (fchar0 F 2%positive). cbn [fpos]. rewrite <- H. unfold two. ring. Qed.

  Lemma feq_opp_0 x : x = - x -> x = 0.
  Proof.
    intros H. destruct (fmul_eq0 two x) as [E|E]; [|destruct (two_neq0 E)|exact E].
    unfold two. transitivity (x + - x); [rewrite <- H; ring | ring].
  Qed.

  Lemma fpow_add x n m : fpow x (n + m) = fpow x n * fpow x m.
  Proof. induction n as [|n IH]; cbn [fpow Nat.add]; [ring | rewrite IH; ring]. Qed.

  Lemma fpow_mul x n m : fpow x (n * m) = fpow (fpow x n) m.
  Proof.
    induction m as [|m IH]; [rewrite Nat.mul_0_r; reflexivity|].
    rewrite Nat.mul_succ_r, Nat.add_comm, fpow_add, IH. cbn [fpow]. ring.
  Qed.

  Lemma fpow_1 n : fpow (1 : F) n = 1.
  Proof. induction n as [|n IH]; cbn [fpow]; [reflexivity | rewrite IH; ring]. Qed.

  Lemma fpow_mul_base x y n : fpow (x * y) n = fpow x n * fpow y n.
  Proof. induction n as [|n IH]; cbn [fpow]; [ring | rewrite IH; ring]. Qed.

  Lemma fpow_neq0 x n : x <> 0 -> fpow x n <> 0.
  Proof.
    intros Hx; induction n as [|n IH]; cbn [fpow]; [apply f_1_neq_0 | apply fmul_neq0; assumption].
  Qed.

  Lemma fpow_0 n : (0 < n)%nat -> fpow (0 : F) n = 0.
  Proof. destruct n; [lia|]. intros _. cbn [fpow]. ring. Qed.

  Lemma feqb_pow0 x m : (0 < m)%nat -> oeqb (fpow x m) 0 = oeqb x 0.
  Proof.
    intros Hm. destruct (feq_dec x 0) as [->|H]; [rewrite fpow_0, !feqb_refl by exact Hm; reflexivity|].
    rewrite (proj2 (feqb_false x 0) H). apply feqb_false, fpow_neq0, H.
  Qed.

  Lemma fpow_inv x n : x <> 0 -> fpow (oinv x) n = oinv (fpow x n).
  Proof.
    intros Hx. induction n as [|n IH]; cbn [fpow].
    - field. apply f_1_neq_0.
    - rewrite IH. field. split; [apply fpow_neq0|]; exact Hx.
  Qed.

  Lemma fpow_div x y n : y <> 0 -> fpow (x / y) n = fpow x n / fpow y n.
  Proof. intros Hy. rewrite !fdiv_def, fpow_mul_base, fpow_inv by exact Hy. reflexivity. Qed.

  Lemma fzpow_nat x (n : nat) : fzpow x (Z.of_nat n) = fpow x n.
  Proof. destruct n as [|n]; [reflexivity|]. cbn [Z.of_nat fzpow]. rewrite SuccNat2Pos.id_succ. reflexivity. Qed.

  Lemma fzpow_neq0 x (k : Z) : x <> 0 -> fzpow x k <> 0.
  Proof.
    intros Hx. destruct k; cbn [fzpow]; [apply f_1_neq_0 | apply fpow_neq0; exact Hx |].
    apply finv_neq0. apply fpow_neq0. exact Hx.
  Qed.

  Lemma fpow_opp_even x n : fpow (- x) (2 * n) = fpow x (2 * n).
  Proof.
    rewrite !fpow_mul. f_equal. cbn [fpow]. ring.
  Qed.

  Lemma fpow_neg1_odd n : fpow (- (1) : F) (2 * n + 1) = - (1).
  Proof. rewrite fpow_add, fpow_opp_even, fpow_1. cbn [fpow]. ring. Qed.

  Lemma even_pow_square x n : fpow x (2 * n) = fpow x n * fpow x n.
  Proof. replace (2 * n)%nat with (n + n)%nat by lia. apply fpow_add. Qed.

  Lemma fpos_succ p : @fpos F (Pos.succ p) = 1 + fpos p.
  Proof. induction p as [p IH|p IH|]; cbn [fpos Pos.succ]; try rewrite IH; ring. Qed.

  Lemma fpos_add p q : @fpos F (p + q) = fpos p + fpos q.
  Proof.
    revert q. induction p as [|p IH] using Pos.peano_ind; intros q.
    - rewrite Pos.add_1_l, fpos_succ. reflexivity.
    - rewrite Pos.add_succ_l, !fpos_succ, IH. ring.
  Qed.

  Lemma fpos_mul p q : @fpos F (p * q) = fpos p * fpos q.
  Proof.
    induction p as [|p IH] using Pos.peano_ind.
    - rewrite Pos.mul_1_l. cbn [fpos]. ring.
    - rewrite Pos.mul_succ_l, fpos_add, IH, fpos_succ. ring.
  Qed.

  Lemma fz_pos_sub p q : @fz F (Z.pos_sub p q) = fpos p - fpos q.
  Proof.
    rewrite Z.pos_sub_spec. destruct (Pos.compare_spec p q) as [->|H|H]; cbn [fz].
    - ring.
    - pose proof (fpos_add (q - p) p) as E. rewrite (Pos.sub_add q p H) in E. rewrite E. ring.
    - pose proof (fpos_add (p - q) q) as E. rewrite (Pos.sub_add p q H) in E. rewrite E. ring.
  Qed.

  Lemma fz_add a b : @fz F (a + b) = fz a + fz b.
  Proof.
    destruct a, b; cbn [fz Z.add]; try rewrite fpos_add; try rewrite fz_pos_sub; ring.
  Qed.

  Lemma fz_opp a : @fz F (- a) = - fz a.
  Proof. destruct a; cbn [fz Z.opp]; ring. Qed.

  Lemma fz_sub a b : @fz F (a - b) = fz a - fz b.
  Proof. unfold Z.sub. rewrite fz_add, fz_opp. ring. Qed.

  Lemma fz_mul a b : @fz F (a * b) = fz a * fz b.
  Proof. destruct a, b; cbn [fz Z.mul]; try rewrite fpos_mul; ring. Qed.

  Lemma fz_0 : @fz F 0 = 0. Proof. reflexivity. Qed.
  Lemma fz_1 : @fz F 1 = 1. Proof. reflexivity. Qed.

  Lemma fz_neq0 a : a <> 0%Z -> @fz F a <> 0.
  Proof.
    destruct a; cbn [fz]; intros H; [congruence | apply fchar0 |].
    intro E. apply fopp_eq0 in E. revert E. apply fchar0.
  Qed.

  Lemma fz_inj a b : @fz F a = fz b -> a = b.
  Proof.
    intros H. destruct (Z.eq_dec (a - b) 0) as [E|E]; [lia|].
    exfalso. apply (fz_neq0 _ E). rewrite fz_sub, H. ring.
  Qed.

  Lemma fz2_neq0 : @fz F 2 <> 0.
  Proof. exact (fchar0 F 2). Qed.

  Lemma fz_pow a n : @fz F (a ^ Z.of_nat n) = fpow (fz a) n.
  Proof.
    induction n as [|n IH]; [reflexivity|].
    rewrite Nat2Z.inj_succ, Z.pow_succ_r by lia. rewrite fz_mul, IH. reflexivity.
  Qed.

  Lemma fsum_app (l1 l2 : list F) : fsum (l1 ++ l2) = fsum l1 + fsum l2.
  Proof. induction l1 as [|a l IH]; cbn [fsum app]; [ring | rewrite IH; ring]. Qed.

  Lemma fsum_map_add {A} (l : list A) (f g : A -> F) :
    fsum (map (fun a => f a + g a) l) = fsum (map f l) + fsum (map g l).
  Proof. induction l as [|a l IH]; cbn [fsum map]; [ring | rewrite IH; ring]. Qed.

  Lemma fsum_map_scal {A} (l : list A) (c : F) (f : A -> F) :
    fsum (map (fun a => c * f a) l) = c * fsum (map f l).
  Proof. induction l as [|a l IH]; cbn [fsum map]; [ring | rewrite IH; ring]. Qed.

  Lemma fsum_map_scal_r {A} (l : list A) (c : F) (f : A -> F) :
    fsum (map (fun a => f a * c) l) = fsum (map f l) * c.
  Proof. induction l as [|a l IH]; cbn [fsum map]; [ring | rewrite IH; ring]. Qed.

  Lemma fsum_map_const {A} (c : F) (l : list A) : fsum (map (fun _ => c) l) = fz (Z.of_nat (length l)) * c.
  Proof.
    induction l as [|a l IH]; cbn [fsum map length]; [cbn; ring|].
    rewrite IH, Nat2Z.inj_succ, <- Z.add_1_l, fz_add. cbn [fz fpos]. ring.
  Qed.

  Lemma fsum_concat (ls : list (list F)) : fsum (concat ls) = fsum (map fsum ls).
  Proof. induction ls as [|l ls IH]; cbn [concat map fsum]; [reflexivity | rewrite fsum_app, IH; reflexivity]. Qed.

  Lemma fsum_flat_map {A B} (g : A -> list B) (f : B -> F) (l : list A) :
    fsum (map f (flat_map g l)) = fsum (map (fun a => fsum (map f (g a))) l).
  Proof. rewrite flat_map_concat_map, concat_map, fsum_concat, !map_map. reflexivity. Qed.

  Lemma fsum_map_ext {A} (l : list A) (f g : A -> F) :
    (forall a, In a l -> f a = g a) -> fsum (map f l) = fsum (map g l).
  Proof.
    induction l as [|a l IH]; cbn [fsum map]; intros H; [reflexivity|].
    rewrite (H a) by (left; reflexivity). rewrite IH; [reflexivity|].
    intros b Hb. apply H. right. exact Hb.
  Qed.

  Lemma fsum_filter {A} (p : A -> bool) (f : A -> F) (l : list A) :
    (forall a, In a l -> p a = false -> f a = 0) -> fsum (map f l) = fsum (map f (filter p l)).
  Proof.
    induction l as [|a l IH]; intros H; cbn [map filter fsum]; [reflexivity|].
    rewrite IH by (intros b Hb; apply H; right; exact Hb).
    destruct (p a) eqn:E; cbn [map fsum]; [reflexivity|]. rewrite (H a (or_introl eq_refl) E). ring.
  Qed.

  Lemma fsum_map_lin {A} (l : list A) (c : F) (f g1 g2 : A -> F) :
    (forall a, In a l -> f a = g1 a + c * g2 a) -> fsum (map f l) = fsum (map g1 l) + c * fsum (map g2 l).
  Proof. intros H. rewrite <- fsum_map_scal, <- fsum_map_add. apply fsum_map_ext. exact H. Qed.

  Lemma fsum_map_zero {A} (l : list A) : fsum (map (fun _ => (0 : F)) l) = 0.
  Proof. rewrite fsum_map_const. ring. Qed.

  Lemma fsum_map_all_zero {A} (l : list A) (f : A -> F) : (forall a, In a l -> f a = 0) -> fsum (map f l) = 0.
  Proof. intros H. rewrite (fsum_map_ext l f (fun _ => 0) H). apply fsum_map_zero. Qed.

  Lemma fsum_perm {A} (f : A -> F) (l l' : list A) : Permutation l l' -> fsum (map f l) = fsum (map f l').
  Proof.
    induction 1 as [|a l l' H IH|a b l|l l' l'' H1 IH1 H2 IH2]; cbn [map fsum]; try rewrite IH; try ring.
    rewrite IH1. exact IH2.
  Qed.

  Lemma fsum_reindex_invol {A} (s : A -> A) (p : A -> bool) (f : A -> F) (l : list A) : NoDup l ->
    (forall a, In a l -> p a = true -> In (s a) l /\ p (s a) = true /\ s (s a) = a) ->
    (forall a, In a l -> p a = false -> f a = 0 /\ f (s a) = 0) ->
    fsum (map f l) = fsum (map (fun a => f (s a)) l).
  Proof.
    intros Hnd Hs H0.
    rewrite (fsum_filter p f), (fsum_filter p (fun a => f (s a))) by (intros a Ha E; apply (H0 a Ha E)).
    assert (HL : forall a, In a (filter p l) -> In (s a) (filter p l) /\ s (s a) = a).
    { intros a Ha. apply filter_In in Ha. destruct Ha as [Ha Hp]. destruct (Hs a Ha Hp) as (H1 & H2 & H3). rewrite filter_In. tauto. }
    rewrite <- (map_map s f). apply fsum_perm, NoDup_Permutation_bis.
    - apply NoDup_filter, Hnd.
    - rewrite map_length. reflexivity.
    - intros a Ha. apply in_map_iff. exists (s a). split; apply HL, Ha.
  Qed.

  Lemma fsum_map_swap {A B} (la : list A) (lb : list B) (f : A -> B -> F) :
    fsum (map (fun a => fsum (map (fun b => f a b) lb)) la)
    = fsum (map (fun b => fsum (map (fun a => f a b) la)) lb).
  Proof.
    induction la as [|a la IH]; cbn [fsum map].
    - symmetry. apply fsum_map_zero.
    - rewrite IH. rewrite <- fsum_map_add. reflexivity.
  Qed.

  Lemma fsum_exchange {A B} (la : list A) (lb : list B) (a : B -> F) (g : A -> B -> F) (h : A -> F) :
    fsum (map (fun j => fsum (map (fun m => a m * g j m) lb) * h j) la)
    = fsum (map (fun m => a m * fsum (map (fun j => h j * g j m) la)) lb).
  Proof.
    rewrite (fsum_map_ext la _ (fun j => fsum (map (fun m => a m * (h j * g j m)) lb))).
    2:{ intros j _. rewrite <- fsum_map_scal_r. apply fsum_map_ext. intros; ring. }
    rewrite fsum_map_swap. apply fsum_map_ext. intros m _. apply fsum_map_scal.
  Qed.

  Lemma fsum_single {A} (l : list A) (k : A) (f : A -> F) :
    NoDup l -> In k l -> (forall m, In m l -> m <> k -> f m = 0) -> fsum (map f l) = f k.
  Proof.
    induction 1 as [|a l Ha Hnd IH]; intros Hk H0; [destruct Hk|]. cbn [map fsum]. destruct Hk as [->|Hk].
    - rewrite fsum_map_all_zero; [ring|].
      intros m Hm. apply H0; [right; exact Hm | intros ->; exact (Ha Hm)].
    - rewrite IH, (H0 a); [ring | left; reflexivity | intros ->; exact (Ha Hk) | exact Hk | intros m Hm; apply H0; right; exact Hm].
  Qed.
End FieldLemmas.

Lemma Qc_eqb_ok (x y : Qc) : Qc_eq_bool x y = true <-> x = y.
Proof.
  split; [apply Qc_eq_bool_correct|]. intros ->. unfold Qc_eq_bool.
  destruct (Qc_eq_dec y y); [reflexivity | congruence].
Qed.

Lemma Qc_fpos (p : positive) : (this (@fpos QcOps p) == (Zpos p # 1))%Q.
Proof.
  induction p as [p IH|p IH|]; cbn [fpos QcOps o1 oadd omul]; [| |reflexivity].
  all: unfold Qcplus, Qcmult, Q2Qc; cbn [this]; rewrite ?Qred_correct, IH; unfold Qeq; cbn; lia.
Qed.

Lemma Qc_char0 (p : positive) : @fpos QcOps p <> @o0 QcOps.
Proof.
  intro H. assert (E := Qc_fpos p). rewrite H in E. unfold Qeq in E. cbn in E. lia.
Qed.

Definition QcField : FieldT := mkFieldT QcOps Qcft Qc_eqb_ok Qc_char0.
