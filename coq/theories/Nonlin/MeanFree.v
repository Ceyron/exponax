(* C09: mean-mode coefficients of the convective terms that are not in conservation form.  The zero mode of a dealiased product is
   N^-D sum_m U(m) V(-m) over the band (2K < N), and the band is symmetric under m -> -m: a summand odd under m -> -m sums to zero
   (integration by parts in Fourier space).  This gives zero mean for the non-conservative single-channel convection and the 2D vorticity
   convection on every state, and for the Leray-projected rotational form on divergence-free states.
   The suffix _dc of the lemma names means "at the zero (mean, DC) mode"; it has nothing to do with dc c of Nonlin/Terms.v, the
   derivative symbol of axis c. *)
From Coq Require Import ZArith List Lia.
From EXV Require Import Base.Scalar Base.FieldLemmas Spectral.ListLemmas Nonlin.Conv Nonlin.ConvProofs Nonlin.Terms Nonlin.TermsProofs.
Import ListNotations.

Definition negi (k : idx) : idx := map Z.opp k.

Section Band.
  Local Open Scope Z_scope.
  Lemma negi_invol k : negi (negi k) = k.
  Proof. unfold negi. rewrite map_map. rewrite <- (map_id k) at 2. apply map_ext. intros; lia. Qed.

  Lemma in_band_negi Kc k : in_band Kc (negi k) = in_band Kc k.
  Proof. unfold in_band, negi. induction k as [|c k IH]; cbn [map forallb]; [reflexivity|]. rewrite IH. f_equal. lia. Qed.

End Band.

Section MeanFree.
  Variable F : FieldT.
  Add Ring Ff : (fring F).
  Local Open Scope fld_scope.

  Variables (D : nat) (N Kc : Z).
  Hypothesis N_pos : (0 < N)%Z.
  Hypothesis K_nonneg : (0 <= Kc)%Z.
  Hypothesis K_small : (2 * Kc < N)%Z.

  Lemma band_reindex (f : idx -> F) : fsum (map f (bandD D Kc)) = fsum (map (fun m => f (negi m)) (bandD D Kc)).
  Proof.
    apply (fsum_reindex_invol F negi (fun _ => true)); [apply NoDup_bandD | | discriminate].
    intros m Hm _. apply (in_bandD_iff D Kc m) in Hm. rewrite (in_bandD_iff D Kc _), in_band_negi, negi_invol.
    unfold negi at 1. rewrite map_length. tauto.
  Qed.

  Definition zeros : idx := repeat 0%Z D.

  Lemma zeros_all : Forall (fun c => c = 0%Z) zeros.
  Proof. apply Forall_forall. intros c Hc. apply repeat_spec in Hc. exact Hc. Qed.
  Lemma is_zero_zeros : is_zero zeros = true.
  Proof. apply forallb_forall. intros c Hc. apply repeat_spec in Hc. subst c. reflexivity. Qed.

  Lemma subi_zeros m : length m = D -> subi zeros m = negi m.
  Proof.
    unfold zeros, subi, negi. revert m. induction D as [|d IH]; intros [|c m] H; cbn in *; try discriminate; try reflexivity.
    f_equal. apply IH. lia.
  Qed.

  Variables (ii s : F).
  Lemma dc_negi c m : dc F ii s c (negi m) = - dc F ii s c m.
  Proof.
    unfold dc, negi. rewrite (nth_map_fix Z.opp m 0%Z 0%Z c eq_refl), fz_opp. ring.
  Qed.

  Lemma leray_dc (u : list (field F)) i : (i < D)%nat -> (i < length u)%nat ->
    nth i (leray F ii s D u) (fzero F) zeros = nth i u (fzero F) zeros.
  Proof. intros Hi Hu. rewrite leray_nth, (dc_at_zero F ii s i zeros) by (assumption || apply nth_repeat). ring. Qed.

  Lemma odd_sum_zero (g : idx -> F) : (forall m, g (negi m) = - g m) -> fsum (map g (bandD D Kc)) = 0.
  Proof.
    intros Hodd. apply feq_opp_0. rewrite band_reindex at 1.
    rewrite (fsum_map_ext F _ _ (fun m => - (1) * g m)) by (intros m _; rewrite Hodd; ring). rewrite fsum_map_scal. ring.
  Qed.

  Lemma prod2_zero_mode (U V : field F) :
    prod2 F D N Kc U V zeros = nfac F D N * fsum (map (fun m => msk F Kc U m * msk F Kc V (negi m)) (bandD D Kc)).
  Proof.
    unfold prod2, msk at 1. rewrite (is_zero_in_band Kc zeros K_nonneg is_zero_zeros). unfold cconv2. f_equal. apply fsum_map_ext. intros m Hm.
    apply (in_bandD_iff D Kc m) in Hm. destruct Hm as [Hl Hbm].
    rewrite (subi_zeros m Hl), (wrapD_band N Kc) by (rewrite ?in_band_negi; assumption). reflexivity.
  Qed.

  (* sum_m u(m) d_c(-m) u(-m) is odd under m -> -m: the product of a field with one of its derivatives has zero mean *)
  Lemma prod2_deriv_dc c (u : field F) : prod2 F D N Kc u (fmulp F (dc F ii s c) u) zeros = 0.
  Proof.
    rewrite prod2_zero_mode, odd_sum_zero; [ring|].
    intros m. rewrite negi_invol. unfold fmulp. rewrite !msk_mul, dc_negi. ring.
  Qed.

  (* the non-conservative single-channel convection term has zero mean for EVERY input state (any D) *)
  Theorem conv_sc_noncons_dc (b : F) (u : field F) : conv_sc_noncons F (prod2 F D N Kc) ii s D b u zeros = 0.
  Proof.
    unfold conv_sc_noncons, fscal, fsumf. rewrite map_map.
    rewrite fsum_map_all_zero; [ring | intros c _; apply prod2_deriv_dc].
  Qed.

  Lemma prod2_pair_dc (g : idx -> F) (c : F) (U V U' V' : field F) :
    (forall m, in_band Kc m = true -> U m * V (negi m) + c * (U' m * V' (negi m)) = g m) ->
    (forall m, g (negi m) = - g m) ->
    prod2 F D N Kc U V zeros = - c * prod2 F D N Kc U' V' zeros.
  Proof.
    intros Hg Hodd. rewrite !prod2_zero_mode. pose proof (odd_sum_zero g Hodd) as H.
    rewrite (fsum_map_lin F _ c g (fun m => msk F Kc U m * msk F Kc V (negi m)) (fun m => msk F Kc U' m * msk F Kc V' (negi m))) in H.
    - apply fsub_eq0. transitivity (nfac F D N * 0); [rewrite <- H; ring | ring].
    - intros m Hm. apply (in_bandD_iff D Kc m) in Hm. destruct Hm as [_ Hb]. unfold msk. rewrite in_band_negi, Hb. symmetry. apply Hg, Hb.
  Qed.

  (* the two products cancel term by term at the mean mode (g = 0), for every vorticity state; the proof does not look at the
     multiplier inv_lap_one *)
  Theorem vorticity_conv_dc (b : F) (w : field F) : vorticity_conv F (prod2 F D N Kc) ii s D b w zeros = 0.
  Proof.
    unfold vorticity_conv, fscal, fadd.
    rewrite (prod2_pair_dc (fun _ => 0) 1 _ _ (fun k => - (1) * fmulp F (dc F ii s 0) (fmulp F (inv_lap_one F ii s D) w) k) (fmulp F (dc F ii s 1) w)).
    - ring.
    - intros m _. unfold fmulp. rewrite !dc_negi. ring.
    - intros m. ring.
  Qed.

  (* rotational form u x (curl u), the component along axis a of a cyclic triple of axes a, b, c: on divergence-free band-limited input
     the summand is -d_a(m) (u(m).u(-m)), odd under m -> -m *)
  Lemma rot_component_dc (a b c : nat) (ua ub uc : field F) :
    (forall m, in_band Kc m = true -> dc F ii s a m * ua m + dc F ii s b m * ub m + dc F ii s c m * uc m = 0) ->
    fadd F (prod2 F D N Kc ub (fadd F (fmulp F (dc F ii s a) ub) (fscal F (- (1)) (fmulp F (dc F ii s b) ua))))
           (fscal F (- (1)) (prod2 F D N Kc uc (fadd F (fmulp F (dc F ii s c) ua) (fscal F (- (1)) (fmulp F (dc F ii s a) uc))))) zeros = 0.
  Proof.
    intros Hdiv. unfold fadd at 1.
    rewrite (prod2_pair_dc (fun m => - dc F ii s a m * (ua m * ua (negi m) + ub m * ub (negi m) + uc m * uc (negi m))) (- (1)) ub _ uc
               (fadd F (fmulp F (dc F ii s c) ua) (fscal F (- (1)) (fmulp F (dc F ii s a) uc)))).
    - unfold fscal. ring.
    - intros m Hb. unfold fadd, fscal, fmulp. rewrite !dc_negi.
      transitivity (- dc F ii s a m * (ua m * ua (negi m) + ub m * ub (negi m) + uc m * uc (negi m))
                    + ua (negi m) * (dc F ii s a m * ua m + dc F ii s b m * ub m + dc F ii s c m * uc m)); [ring | rewrite (Hdiv m Hb); ring].
    - intros m. rewrite negi_invol, dc_negi. ring.
  Qed.
End MeanFree.

(* 1D default (multi-channel, non-conservative) Burgers / KdV convection -b u d_x u: zero mean for every state *)
Theorem conv_mc_noncons_1d_dc (F : FieldT) (N Kc : Z) (ii s b : F) (u : field F) :
  (0 < N)%Z -> (0 <= Kc)%Z -> (2 * Kc < N)%Z ->
  nth 0 (conv_mc_noncons F (prod2 F 1 N Kc) ii s 1 b [u]) (fzero F) (zeros 1) = o0.
Proof.
  intros HN HK H2. rewrite conv_mc_noncons_1d. apply conv_sc_noncons_dc; assumption.
Qed.

(* 3D Navier-Stokes in rotational form, Leray-projected: every component has zero mean on divergence-free band-limited states *)
Section Rot3.
  Variable F : FieldT.
  Add Ring Ff3 : (fring F).
  Local Open Scope fld_scope.
Theorem projected_conv_dc (N Kc : Z) (ii s : F) (u0 u1 u2 : field F) :
  (0 < N)%Z -> (0 <= Kc)%Z -> (2 * Kc < N)%Z ->
  (forall m, in_band Kc m = true -> dc F ii s 0 m * u0 m + dc F ii s 1 m * u1 m + dc F ii s 2 m * u2 m = 0) ->
  forall i, (i < 3)%nat -> nth i (projected_conv F (prod2 F 3 N Kc) ii s 3 [u0; u1; u2]) (fzero F) (zeros 3) = 0.
Proof.
  intros HN HK H2 Hdiv i Hi. unfold projected_conv. rewrite leray_dc by exact Hi.
  destruct i as [|[|[|i]]]; [| | | lia]; cbn [nth cross curl].
  - apply (rot_component_dc F 3 N Kc HN HK H2 ii s 0 1 2 u0 u1 u2 Hdiv).
  - apply (rot_component_dc F 3 N Kc HN HK H2 ii s 1 2 0 u1 u2 u0). intros m Hm. rewrite <- (Hdiv m Hm). ring.
  - apply (rot_component_dc F 3 N Kc HN HK H2 ii s 2 0 1 u2 u0 u1). intros m Hm. rewrite <- (Hdiv m Hm). ring.
Qed.
End Rot3.
