From Coq Require Import ZArith List Bool Lia.
From EXV Require Import Base.Scalar Base.FieldLemmas Spectral.Symbols Spectral.ListLemmas Layout.Freq Layout.FreqProofs Nonlin.Conv.
Import ListNotations.
(* lia of this file, and of EVERY file that requires it directly or indirectly (a redefinition cannot be made local in Coq 8.16), reads / and
   mod through their Euclidean equations; the hook also clears hypotheses lia cannot use, which makes lia cheaper in large contexts *)
Ltac Zify.zify_post_hook ::= Z.to_euclidean_division_equations.

Section Wrap.
  Local Open Scope Z_scope.
  Lemma mod_cases N x : 0 < N -> - N < x < N -> (0 <= x /\ x mod N = x) \/ (x < 0 /\ x mod N = x + N).
  Proof.
    intros HN Hx. destruct (Z_le_gt_dec 0 x) as [H|H]; [left|right]; split; try lia.
    - apply Z.mod_small. lia.
    - symmetry. apply (Z.mod_unique x N (-1) (x + N)); lia.
  Qed.

  Lemma wrap1_small N x : 0 < N -> 2 * Z.abs x < N -> wrap1 N x = x.
  Proof.
    unfold wrap1, fftfreq. intros HN Hx. destruct (mod_cases N x HN ltac:(lia)) as [[H0 ->]|[H0 ->]].
    - destruct (x <=? (N - 1) / 2) eqn:E; lia.
    - destruct (x + N <=? (N - 1) / 2) eqn:E; lia.
  Qed.

  (* x ranges over sums / differences of band indices, |x| <= B; the grid resolves B + Kc < N *)
  Lemma wrap1_alias N Kc B x : 0 < N -> 0 <= Kc -> Z.abs x <= B -> B + Kc < N -> Kc < Z.abs x -> Kc < Z.abs (wrap1 N x).
  Proof.
    unfold wrap1, fftfreq. intros HN HK HB HBK Hx. destruct (mod_cases N x HN ltac:(lia)) as [[H0 ->]|[H0 ->]].
    - destruct (x <=? (N - 1) / 2) eqn:E; lia.
    - destruct (x + N <=? (N - 1) / 2) eqn:E; lia.
  Qed.

  Lemma wrapD_band N Kc (x : idx) : 0 < N -> 2 * Kc < N -> in_band Kc x = true -> wrapD N x = x.
  Proof.
    intros HN H2K H. unfold wrapD. rewrite <- (map_id x) at 2. apply map_ext_in. intros c Hc. apply wrap1_small; [exact HN|].
    unfold in_band in H. rewrite forallb_forall in H. specialize (H c Hc). lia.
  Qed.

  Lemma in_band_wrap N Kc B (x : idx) : 0 < N -> 0 <= Kc -> B + Kc < N -> Forall (fun c => Z.abs c <= B) x ->
    in_band Kc x = false -> in_band Kc (wrapD N x) = false.
  Proof.
    intros HN HK HBK HF. induction HF as [|c x Hc HF IH]; cbn [in_band forallb wrapD map]; [discriminate|].
    rewrite andb_false_iff. intros [H|H].
    - rewrite (proj2 (Z.leb_gt _ _)); [reflexivity|]. apply (wrap1_alias N Kc B c); lia.
    - change (forallb (fun c0 => Z.abs c0 <=? Kc) (map (wrap1 N) x)) with (in_band Kc (wrapD N x)). rewrite (IH H). apply andb_false_r.
  Qed.

  Lemma subi_bound Kc B (k m : idx) :
    Forall (fun c => Z.abs c <= B) k -> in_band Kc m = true -> Forall (fun c => Z.abs c <= B + Kc) (subi k m).
  Proof.
    intros HF. revert m. induction HF as [|c k Hc HF IH]; intros m Hm; destruct m as [|d m]; cbn [subi map2]; try constructor.
    - cbn [in_band forallb] in Hm. apply andb_true_iff in Hm. lia.
    - apply IH. cbn [in_band forallb] in Hm. apply andb_true_iff in Hm. tauto.
  Qed.

  Lemma in_band_Forall Kc (k : idx) : in_band Kc k = true -> Forall (fun c => Z.abs c <= Kc) k.
  Proof.
    induction k as [|c k IH]; cbn [in_band forallb]; intros H; constructor; apply andb_true_iff in H.
    - lia.
    - apply IH. tauto.
  Qed.

  Lemma is_zero_in_band Kc k : 0 <= Kc -> is_zero k = true -> in_band Kc k = true.
  Proof.
    intros HK. unfold is_zero, in_band. induction k as [|c k IH]; cbn [forallb]; [reflexivity|].
    intros H. apply andb_true_iff in H. destruct H as [H1 H2]. apply andb_true_iff. split; [lia | apply IH; exact H2].
  Qed.

  Lemma in_zrange_from lo n x : In x (zrange_from lo n) <-> lo <= x < lo + Z.of_nat n.
  Proof.
    revert lo. induction n as [|n IH]; intros lo; cbn [zrange_from In]; [lia|]. rewrite IH. lia.
  Qed.
  Lemma in_zrange lo hi x : In x (zrange lo hi) <-> lo <= x <= hi.
  Proof. unfold zrange. rewrite in_zrange_from. lia. Qed.
  Lemma NoDup_zrange_from lo n : NoDup (zrange_from lo n).
  Proof.
    revert lo. induction n as [|n IH]; intros lo; cbn [zrange_from]; constructor; [|apply IH].
    rewrite in_zrange_from. lia.
  Qed.

  Lemma in_bandD_iff D Kc k : In k (bandD D Kc) <-> (length k = D /\ in_band Kc k = true).
  Proof.
    revert k. induction D as [|D IH]; intros [|c r]; cbn [bandD length in_band forallb].
    - cbn; intuition congruence.
    - cbn; intuition congruence.
    - split; [intros H; destruct (nil_cons_product (zrange (- Kc) Kc) (bandD D Kc) H) | intros [E _]; discriminate].
    - rewrite (in_cons_product (zrange (- Kc) Kc) (bandD D Kc) c r), IH, in_zrange, andb_true_iff, Z.leb_le. unfold in_band. intuition lia.
  Qed.
  Lemma NoDup_bandD D Kc : NoDup (bandD D Kc).
  Proof.
    induction D as [|D IH]; cbn [bandD]; [constructor; [intros [] | constructor]|].
    apply NoDup_cons_product; [apply NoDup_zrange_from | exact IH].
  Qed.

  Lemma wrap1_mod N x : (wrap1 N x) mod N = x mod N.
  Proof. unfold wrap1. rewrite fftfreq_mod. apply Zmod_mod. Qed.

  Lemma wrap1_invol N Kc kc mc : 0 < N -> 2 * Kc < N -> Z.abs mc <= Kc -> wrap1 N (kc - wrap1 N (kc - mc)) = mc.
  Proof.
    intros HN H2K H. transitivity (wrap1 N mc); [|apply wrap1_small; lia]. unfold wrap1 at 1 3. f_equal.
    rewrite Zminus_mod, wrap1_mod, <- Zminus_mod. f_equal. lia.
  Qed.

  Definition wrapsub (N : Z) (k m : idx) : idx := wrapD N (subi k m).

  (* m -> wrap (k - m), applied twice, gives m back on the band (2 Kc < N): what makes the circular product commutative *)
  Lemma wrapsub_invol N Kc k m : 0 < N -> 2 * Kc < N -> length k = length m -> in_band Kc m = true -> wrapsub N k (wrapsub N k m) = m.
  Proof.
    intros HN H2K. unfold wrapsub, wrapD, subi. revert m. induction k as [|kc k IH]; intros [|mc m] Hl Hb; cbn [length] in Hl; try discriminate; [reflexivity|].
    cbn [in_band forallb] in Hb. apply andb_true_iff in Hb. destruct Hb as [H1 H2]. cbn [map2 map]. f_equal; [apply (wrap1_invol N Kc); lia|].
    apply IH; [lia | exact H2].
  Qed.
End Wrap.

(* over any Ops, so that it also serves the dual numbers of AD/ *)
Lemma prod2_ext (K : Ops) (D : nat) (N Kc : Z) (U U' V V' : field K) (k : idx) :
  (forall x, U x = U' x) -> (forall x, V x = V' x) -> prod2 K D N Kc U V k = prod2 K D N Kc U' V' k.
Proof.
  intros HU HV. unfold prod2, msk, cconv2. destruct (in_band Kc k); [|reflexivity].
  f_equal. f_equal. apply map_ext. intros m. unfold msk. rewrite HU, HV. reflexivity.
Qed.

Section AliasFree.
  Variable F : FieldT.
  Add Ring Ff : (fring F).
  Local Open Scope fld_scope.
  Variables (D : nat) (N Kc : Z).
  Hypothesis N_pos : (0 < N)%Z.
  Hypothesis K_nonneg : (0 <= Kc)%Z.

  Lemma msk_wrap B (V : field F) (x : idx) : (B + Kc < N)%Z -> (2 * Kc < N)%Z ->
    Forall (fun c => (Z.abs c <= B)%Z) x -> msk F Kc V (wrapD N x) = msk F Kc V x.
  Proof.
    intros HB H2 HF. unfold msk. destruct (in_band Kc x) eqn:E.
    - rewrite (wrapD_band N Kc x N_pos H2 E), E. reflexivity.
    - rewrite (in_band_wrap N Kc B x N_pos K_nonneg HB HF E). reflexivity.
  Qed.

  Lemma msk_ext (f g : field F) (k : idx) : (in_band Kc k = true -> f k = g k) -> msk F Kc f k = msk F Kc g k.
  Proof. intros H. unfold msk. destruct (in_band Kc k); [apply H; reflexivity | reflexivity]. Qed.

  (* quadratic terms: with 3 Kc < N (Orszag 2/3 rule) no alias falls into the retained band *)
  Theorem prod2_alias_free (U V : field F) (k : idx) : (3 * Kc < N)%Z -> prod2 F D N Kc U V k = prod2L F D N Kc U V k.
  Proof.
    intros H3. unfold prod2, prod2L. apply msk_ext. intros Ek.
    f_equal. unfold cconv2, lconv2. apply fsum_map_ext. intros m Hm. f_equal.
    apply (msk_wrap (Kc + Kc)); try lia.
    apply subi_bound; [apply in_band_Forall; exact Ek | apply (in_bandD_iff D Kc m), Hm].
  Qed.

  (* cubic terms: with 4 Kc < N (the 1/2 rule) *)
  Theorem prod3_alias_free (U V W : field F) (k : idx) : (4 * Kc < N)%Z -> prod3 F D N Kc U V W k = prod3L F D N Kc U V W k.
  Proof.
    intros H4. unfold prod3, prod3L. apply msk_ext. intros Ek.
    f_equal. unfold cconv3, lconv3. apply fsum_map_ext. intros m1 Hm1. apply fsum_map_ext. intros m2 Hm2. f_equal. f_equal.
    apply (msk_wrap (Kc + Kc + Kc)); try lia.
    apply subi_bound; [|apply (in_bandD_iff D Kc m2), Hm2].
    apply subi_bound; [apply in_band_Forall; exact Ek | apply (in_bandD_iff D Kc m1), Hm1].
  Qed.

  Lemma msk_idem (a : field F) k : msk F Kc (msk F Kc a) k = msk F Kc a k.
  Proof. unfold msk. destruct (in_band Kc k); reflexivity. Qed.

  Lemma msk_mul (p U : field F) (k : idx) : msk F Kc (fun x => p x * U x) k = p k * msk F Kc U k.
  Proof. unfold msk. destruct (in_band Kc k); ring. Qed.

  (* mode-wise weights a on the first and b on the second factor, whose product along every pair (m, wrap (k - m)) of the convolution
     is the same c, come out of the product as c.  Constant weights: the product is homogeneous in each factor (Nonlin/Scales.v), with a
     weight 0 a vanishing factor kills it (below); a character of the grid with c = chi k: translations (Steppers/Symmetry.v) *)
  Lemma prod2_weighted (a b : idx -> F) (c : F) (U U' V V' : field F) (k : idx) :
    (forall m, In m (bandD D Kc) -> a m * b (wrapD N (subi k m)) = c) -> (forall x, U' x = a x * U x) -> (forall x, V' x = b x * V x) ->
    prod2 F D N Kc U' V' k = c * prod2 F D N Kc U V k.
  Proof.
    intros Hc HU HV. unfold prod2. rewrite <- (msk_mul (fun _ => c)). apply msk_ext. intros _.
    unfold cconv2. rewrite <- !fsum_map_scal. apply fsum_map_ext. intros m Hm.
    rewrite (msk_ext U' (fun x => a x * U x)), (msk_ext V' (fun x => b x * V x)), !msk_mul, <- (Hc m Hm) by (intros _; auto). ring.
  Qed.

  Lemma prod2_zero_r (U V : field F) (k : idx) : (forall x, V x = 0) -> prod2 F D N Kc U V k = 0.
  Proof. intros H. rewrite (prod2_weighted (fun _ => 1) (fun _ => 0) 0 U U V V k); [ring | intros; ring | intros; ring | intros; rewrite H; ring]. Qed.
  Lemma prod2_zero_l (U V : field F) (k : idx) : (forall x, U x = 0) -> prod2 F D N Kc U V k = 0.
  Proof. intros H. rewrite (prod2_weighted (fun _ => 0) (fun _ => 1) 0 U U V V k); [ring | intros; ring | intros; rewrite H; ring | intros; ring]. Qed.

  Lemma prod2_msk (a b : field F) k : prod2 F D N Kc (msk F Kc a) (msk F Kc b) k = prod2 F D N Kc a b k.
  Proof.
    unfold prod2. apply msk_ext. intros _. f_equal. unfold cconv2. apply fsum_map_ext. intros m _. rewrite !msk_idem. reflexivity.
  Qed.

  Lemma prod3_msk (a b c : field F) k : prod3 F D N Kc (msk F Kc a) (msk F Kc b) (msk F Kc c) k = prod3 F D N Kc a b c k.
  Proof.
    unfold prod3. apply msk_ext. intros _. f_equal. unfold cconv3. apply fsum_map_ext. intros m1 _. apply fsum_map_ext. intros m2 _.
    rewrite !msk_idem. reflexivity.
  Qed.

  Lemma cconv2_comm (U V : field F) k : (2 * Kc < N)%Z -> length k = D -> cconv2 F D N Kc U V k = cconv2 F D N Kc V U k.
  Proof.
    intros H2K Hk. unfold cconv2.
    rewrite (fsum_reindex_invol F (wrapsub N k) (fun m => in_band Kc (wrapsub N k m)) _ _ (NoDup_bandD D Kc)).
    - apply fsum_map_ext. intros m Hm. apply (in_bandD_iff D Kc m) in Hm. fold (wrapsub N k m) (wrapsub N k (wrapsub N k m)).
      rewrite (wrapsub_invol N Kc) by (lia || tauto). ring.
    - intros m Hm E. apply (in_bandD_iff D Kc m) in Hm. rewrite (in_bandD_iff D Kc _), (wrapsub_invol N Kc) by (lia || tauto).
      unfold wrapsub, wrapD, subi. rewrite map_length, map2_length; [tauto | lia].
    - intros m _ E. unfold msk, wrapsub in *. rewrite E. split; ring.
  Qed.

  Lemma prod2_comm (a b : field F) k : (2 * Kc < N)%Z -> length k = D -> prod2 F D N Kc a b k = prod2 F D N Kc b a k.
  Proof. intros H2K Hk. unfold prod2. apply msk_ext. intros _. rewrite (cconv2_comm a b k H2K Hk). reflexivity. Qed.

  Theorem prod_out_of_band (U V W : field F) (k : idx) : in_band Kc k = false ->
    prod2 F D N Kc U V k = 0 /\ prod3 F D N Kc U V W k = 0.
  Proof. intros H. unfold prod2, prod3, msk. rewrite H. split; reflexivity. Qed.
End AliasFree.
