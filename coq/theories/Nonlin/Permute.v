(* C08: axis permutations.  sigma = permi p re-labels the components of a wavenumber vector by a permutation p of the axes; the retained
   band, the wrap-around and the differences are component-wise, so the pseudo-spectral product commutes with sigma, and the isotropic scalar
   terms (sums over all axes) are invariant: the term of the permuted field is the permuted term - for every D, N, band, state. *)
From Coq Require Import ZArith List Lia Permutation.
From EXV Require Import Base.Scalar Base.FieldLemmas Spectral.Symbols Spectral.ListLemmas Nonlin.Conv Nonlin.ConvProofs Nonlin.Terms Nonlin.TermsProofs.
Import ListNotations.

Definition permi (p : list nat) (k : idx) : idx := map (fun c => nth c k 0%Z) p.

Section PermIndex.
  Variable D : nat.
  Variable p : list nat.
  Hypothesis p_perm : Permutation p (seq 0 D).

  Lemma axes_perm_length : length p = D.
  Proof. rewrite (Permutation_length p_perm). apply seq_length. Qed.
  Lemma axes_perm_lt c : In c p -> (c < D)%nat.
  Proof. intros H. apply (Permutation_in _ p_perm) in H. apply in_seq in H. lia. Qed.
  Lemma axes_perm_all c : (c < D)%nat -> In c p.
  Proof. intros H. apply (Permutation_in _ (Permutation_sym p_perm)). apply in_seq. lia. Qed.

  Lemma permi_length k : length (permi p k) = D.
  Proof. unfold permi. rewrite map_length. apply axes_perm_length. Qed.

  Lemma permi_id (k : idx) : length k = D -> permi (seq 0 D) k = k.
  Proof. intros <-. unfold permi. rewrite (map_nth_seq (fun c => c)). apply map_id. Qed.

  Lemma permi_perm k : length k = D -> Permutation (permi p k) k.
  Proof. intros Hl. rewrite <- (permi_id k Hl) at 2. unfold permi. apply Permutation_map. exact p_perm. Qed.

  Lemma forallb_permi (f : Z -> bool) k : length k = D -> forallb f (permi p k) = forallb f k.
  Proof.
    intros Hl. pose proof (permi_perm k Hl) as HP. apply Bool.eq_iff_eq_true. rewrite !forallb_forall.
    split; intros H x Hx; apply H; [apply (Permutation_in _ (Permutation_sym HP)) | apply (Permutation_in _ HP)]; exact Hx.
  Qed.
  Lemma in_band_permi Kc k : length k = D -> in_band Kc (permi p k) = in_band Kc k.
  Proof. apply forallb_permi. Qed.
  Lemma is_zero_permi k : length k = D -> is_zero (permi p k) = is_zero k.
  Proof. apply forallb_permi. Qed.

  Lemma nth_permi c k : (c < D)%nat -> nth c (permi p k) 0%Z = nth (nth c p 0%nat) k 0%Z.
  Proof.
    intros Hc. unfold permi. rewrite (nth_map_default (fun c0 => nth c0 k 0%Z) p 0%Z 0%nat c) by (rewrite axes_perm_length; exact Hc). reflexivity.
  Qed.

  Lemma permi_map (f : Z -> Z) k : f 0%Z = 0%Z -> permi p (map f k) = map f (permi p k).
  Proof.
    intros Hf. unfold permi. rewrite map_map. apply map_ext. intros c. apply nth_map_fix, Hf.
  Qed.

  Lemma permi_subi a b : length a = length b -> permi p (subi a b) = subi (permi p a) (permi p b).
  Proof.
    intros Hl. unfold permi, subi.
    generalize p as q. induction q as [|c q IHq]; cbn [map map2]; [reflexivity|].
    rewrite (nth_map2_fix Z.sub a b 0%Z 0%Z 0%Z c eq_refl Hl). f_equal. exact IHq.
  Qed.

  Lemma permi_inj a b : length a = D -> length b = D -> permi p a = permi p b -> a = b.
  Proof.
    intros Ha Hb E. apply (nth_ext _ _ 0%Z 0%Z); [lia|]. intros c Hc. rewrite Ha in Hc.
    pose proof (axes_perm_all c Hc) as Hin. apply In_nth with (d := 0%nat) in Hin. destruct Hin as (i & Hi & Ei).
    rewrite axes_perm_length in Hi. rewrite <- Ei, <- !(nth_permi i) by exact Hi. rewrite E. reflexivity.
  Qed.

  Lemma band_permuted Kc : Permutation (map (permi p) (bandD D Kc)) (bandD D Kc).
  Proof.
    apply NoDup_Permutation_bis.
    - apply NoDup_map_in; [|apply NoDup_bandD]. intros x y Hx Hy. apply (in_bandD_iff D Kc _) in Hx, Hy. apply permi_inj; tauto.
    - rewrite map_length. lia.
    - intros x Hx. apply in_map_iff in Hx. destruct Hx as (m & <- & Hm). apply (in_bandD_iff D Kc _) in Hm. destruct Hm as [Hl Hb].
      apply (in_bandD_iff D Kc _). split; [apply permi_length | rewrite in_band_permi; assumption].
  Qed.
End PermIndex.

Section PermProducts.
  Variable F : FieldT.
  Local Open Scope fld_scope.
  Variables (D : nat) (N Kc : Z).
  Hypothesis N_pos : (0 < N)%Z.
  Variable p : list nat.
  Hypothesis p_perm : Permutation p (seq 0 D).
  Notation sigma := (permi p).
  Notation P2 := (prod2 F D N Kc).
  Notation Z0f := (fzero F).

  Definition relabel (U : field F) : field F := fun k => U (sigma k).

  (* U', V' stand for relabel U, relabel V: only index vectors of length D are looked at *)
  Theorem prod2_relabel (U U' V V' : field F) k : length k = D ->
    (forall x, length x = D -> U' x = U (sigma x)) -> (forall x, length x = D -> V' x = V (sigma x)) ->
    P2 U' V' k = P2 U V (sigma k).
  Proof.
    intros Hl HU HV. unfold prod2, msk at 1 2. rewrite (in_band_permi D p p_perm Kc k Hl). destruct (in_band Kc k); [|reflexivity]. f_equal.
    unfold cconv2. rewrite <- (fsum_perm F (fun m => msk F Kc U m * msk F Kc V (wrapD N (subi (sigma k) m))) _ _ (band_permuted D p p_perm Kc)).
    rewrite map_map. apply fsum_map_ext. intros m Hm. apply (in_bandD_iff D Kc m) in Hm. destruct Hm as [Hlm _].
    assert (Hlen : length (wrapD N (subi k m)) = D) by (unfold wrapD, subi; rewrite map_length, map2_length; lia).
    assert (E : sigma (wrapD N (subi k m)) = wrapD N (subi (sigma k) (sigma m))).
    { unfold wrapD. rewrite (permi_map p (wrap1 N)), (permi_subi p k m) by (try apply wrap1_small; lia). reflexivity. }
    unfold msk. rewrite <- E, !(in_band_permi D p p_perm Kc), (HU m), (HV _ Hlen) by assumption. reflexivity.
  Qed.

  Variables (ii s : F).
  Lemma dc_relabel c k : (c < D)%nat -> dc F ii s c (sigma k) = dc F ii s (nth c p 0%nat) k.
  Proof. intros Hc. unfold dc. rewrite (nth_permi D p p_perm c k Hc). reflexivity. Qed.

  Lemma axes_sum_relabel (g : nat -> F) : fsum (map (fun c => g (nth c p 0%nat)) (seq 0 D)) = fsum (map g (seq 0 D)).
  Proof.
    rewrite <- (fsum_perm F g _ _ p_perm), <- (map_map (fun c => nth c p 0%nat) g), <- (axes_perm_length D p p_perm), (map_nth_seq (fun c => c)), map_id. reflexivity.
  Qed.

  Lemma fsumf_axes_relabel (G G' : nat -> field F) k : (forall c, (c < D)%nat -> G c (sigma k) = G' (nth c p 0%nat) k) ->
    fsumf F (map G (axes D)) (sigma k) = fsumf F (map G' (axes D)) k.
  Proof.
    intros H. unfold fsumf, axes. rewrite !map_map, <- (axes_sum_relabel (fun c => G' c k)).
    apply fsum_map_ext. intros c Hc. apply in_seq in Hc. apply H. lia.
  Qed.

  Theorem conv_sc_cons_relabel (b : F) u k : length k = D ->
    conv_sc_cons F P2 ii s D b (relabel u) k = conv_sc_cons F P2 ii s D b u (sigma k).
  Proof.
    intros Hl. unfold conv_sc_cons, fscal, fmulp. rewrite (prod2_relabel u (relabel u) u (relabel u) k Hl) by reflexivity. f_equal. f_equal. f_equal.
    symmetry. apply fsumf_axes_relabel. intros c Hc. apply dc_relabel. exact Hc.
  Qed.

  Theorem conv_sc_noncons_relabel (b : F) u k : length k = D ->
    conv_sc_noncons F P2 ii s D b (relabel u) k = conv_sc_noncons F P2 ii s D b u (sigma k).
  Proof.
    intros Hl. unfold conv_sc_noncons, fscal. f_equal. symmetry. apply fsumf_axes_relabel. intros c Hc.
    symmetry. apply prod2_relabel; [exact Hl | reflexivity|]. intros x _. unfold fmulp, relabel. rewrite (dc_relabel c x Hc). reflexivity.
  Qed.

  Theorem gradient_norm_relabel (b : F) (zf : bool) u k : length k = D ->
    gradient_norm F P2 ii s D b zf (relabel u) k = gradient_norm F P2 ii s D b zf u (sigma k).
  Proof.
    intros Hl. rewrite !gradient_norm_eq, (is_zero_permi D p p_perm k Hl). destruct (andb zf (is_zero k)); [reflexivity|].
    apply f_equal, f_equal. symmetry. apply fsumf_axes_relabel. intros c Hc.
    symmetry. apply prod2_relabel; [exact Hl | |]; intros x _; unfold fmulp, relabel; rewrite (dc_relabel c x Hc); reflexivity.
  Qed.

  (* u' is the field u seen in the permuted frame: channel i of u' at the re-labelled wavenumber is channel p_i of u *)
  Definition permuted_frame (u u' : list (field F)) : Prop :=
    length u = D /\ length u' = D /\ forall i x, (i < D)%nat -> length x = D -> nth i u' (fzero F) (sigma x) = nth (nth i p 0%nat) u (fzero F) x.

  (* a sum over the axes c of terms G c u_i u_c, under a mode-wise wrapper w: in the permuted frame, summand c of channel i is summand p_c
     of channel p_i *)
  Lemma frame_sum (G : nat -> field F -> field F -> field F) (w : field F -> field F) u u' i k :
    (forall a a' x y, a x = a' y -> w a x = w a' y) -> permuted_frame u u' -> (i < D)%nat ->
    (forall c, (c < D)%nat -> G c (nth i u' Z0f) (nth c u' Z0f) (sigma k)
                              = G (nth c p 0%nat) (nth (nth i p 0%nat) u Z0f) (nth (nth c p 0%nat) u Z0f) k) ->
    nth i (map (fun ui => w (fsumf F (map2 (fun c uj => G c ui uj) (axes D) u'))) u') Z0f (sigma k)
    = nth (nth i p 0%nat) (map (fun ui => w (fsumf F (map2 (fun c uj => G c ui uj) (axes D) u))) u) Z0f k.
  Proof.
    intros Hw (Hu & Hu' & _) Hi HG.
    assert (Hpi : (nth i p 0 < D)%nat) by (apply (axes_perm_lt D p p_perm), nth_In; rewrite (axes_perm_length D p p_perm); exact Hi).
    rewrite (nth_map_default _ u' Z0f Z0f i), (nth_map_default _ u Z0f Z0f (nth i p 0%nat)) by lia. apply Hw.
    unfold axes. rewrite (map2_seq0 _ u' Z0f D Hu'), (map2_seq0 _ u Z0f D Hu).
    apply (fsumf_axes_relabel (fun c => G c (nth i u' Z0f) (nth c u' Z0f))). exact HG.
  Qed.

  Theorem conv_mc_cons_frame (b : F) u u' i k : permuted_frame u u' -> (i < D)%nat -> length k = D ->
    nth i (conv_mc_cons F P2 ii s D b u') Z0f (sigma k) = nth (nth i p 0%nat) (conv_mc_cons F P2 ii s D b u) Z0f k.
  Proof.
    intros HF Hi Hl. pose proof HF as (_ & _ & HR).
    apply (frame_sum (fun c ui uj => fmulp F (dc F ii s c) (P2 ui uj)) (fun f => fscal F (- b) (fscal F (half F) f)) u u' i k); try assumption.
    - intros a a' x y E. unfold fscal. rewrite E. reflexivity.
    - intros c Hc. unfold fmulp. rewrite (dc_relabel c k Hc). f_equal.
      symmetry. apply prod2_relabel; [exact Hl | |]; intros x Hx; symmetry; apply HR; assumption.
  Qed.

  Theorem conv_mc_noncons_frame (b : F) u u' i k : permuted_frame u u' -> (i < D)%nat -> length k = D ->
    nth i (conv_mc_noncons F P2 ii s D b u') Z0f (sigma k) = nth (nth i p 0%nat) (conv_mc_noncons F P2 ii s D b u) Z0f k.
  Proof.
    intros HF Hi Hl. pose proof HF as (_ & _ & HR).
    apply (frame_sum (fun c ui uj => P2 uj (fmulp F (dc F ii s c) ui)) (fun f => fscal F (- b) f) u u' i k); try assumption.
    - intros a a' x y E. unfold fscal. rewrite E. reflexivity.
    - intros c Hc. symmetry. apply prod2_relabel; [exact Hl | intros x Hx; symmetry; apply HR; assumption|].
      intros x Hx. unfold fmulp. rewrite <- (dc_relabel c x Hc), (HR i x Hi Hx). reflexivity.
  Qed.
End PermProducts.
