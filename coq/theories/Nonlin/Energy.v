(* C09: the convective terms do no work on band-limited states.
   The pairing <a, b> = sum_{k in band} a(-k) b(k) is (N^D times) the L^2 inner product of the real fields.  With the alias-free product
   (3K < N) the work of a quadratic term is a sum over triples a + m + c = 0 in the band,
       T(f, g, h) = sum_{a, m in band} f(a) g(m) h(-a-m),
   which is symmetric under permuting its three slots (reflection m -> -a-m of the band).  A derivative symbol phi is additive and odd, so
   phi(a) + phi(m) + phi(-a-m) = 0 and T(phi f, g, h) + T(f, phi g, h) + T(f, g, phi h) = 0: integration by parts in Fourier space.
   The 2D vorticity convection is the Jacobian J(psi, w) = d_1 psi d_0 w - d_0 psi d_1 w; its work <f, J(g, h)> is alternating in (f, g, h),
   which gives the enstrophy (f = h = w) and the energy (f = g = psi) statements at once. *)
From Coq Require Import ZArith List Lia.
From EXV Require Import Base.Scalar Base.FieldLemmas Spectral.Symbols Spectral.ListLemmas Nonlin.Conv Nonlin.ConvProofs Nonlin.Terms Nonlin.TermsProofs Nonlin.MeanFree.
Import ListNotations.

Definition refl (a m : idx) : idx := subi (negi a) m.

Section Refl.
  Local Open Scope Z_scope.
  Lemma refl_length a m : length a = length m -> length (refl a m) = length m.
  Proof. intros H. unfold refl, subi, negi. rewrite map2_length; rewrite map_length; exact H. Qed.
  Lemma refl_nth a m c : length a = length m -> nth c (refl a m) 0 = - nth c a 0 - nth c m 0.
  Proof.
    intros H. unfold refl, subi, negi.
    rewrite (nth_map2_fix Z.sub _ m 0 0 0 c eq_refl), (nth_map_fix Z.opp a 0 0 c eq_refl) by (rewrite map_length; exact H). reflexivity.
  Qed.
  (* an index vector is its components: the identities of refl are those of - x - y *)
  Lemma refl_invol a m : length a = length m -> refl a (refl a m) = m.
  Proof.
    intros H. pose proof (refl_length a m H) as Hr. apply (nth_ext _ _ 0 0); [rewrite refl_length; lia|].
    intros c _. rewrite !refl_nth by lia. lia.
  Qed.
  Lemma refl_comm a m : length a = length m -> refl a m = refl m a.
  Proof. intros H. apply (nth_ext _ _ 0 0); [rewrite !refl_length; lia|]. intros c _. rewrite !refl_nth by lia. lia. Qed.
  Lemma refl_negi_zero a : refl a (negi a) = repeat 0 (length a).
  Proof.
    assert (H : length a = length (negi a)) by (symmetry; apply map_length).
    apply (nth_ext _ _ 0 0); [rewrite refl_length, repeat_length; lia|].
    intros c _. rewrite refl_nth, nth_repeat by exact H. unfold negi. rewrite (nth_map_fix Z.opp a 0 0 c eq_refl). lia.
  Qed.

End Refl.

Section Energy.
  Variable F : FieldT.
  Add Ring Ffe : (fring F).
  Local Open Scope fld_scope.
  Variables (D : nat) (N Kc : Z).
  Hypothesis N_pos : (0 < N)%Z.
  Hypothesis K_nonneg : (0 <= Kc)%Z.
  Hypothesis K_small : (3 * Kc < N)%Z.
  Notation B := (bandD D Kc).

  Definition masked (f : field F) : Prop := forall k, in_band Kc k = false -> f k = 0.
  Lemma masked_msk f : masked (msk F Kc f).
  Proof. intros k H. unfold msk. rewrite H. reflexivity. Qed.
  Lemma masked_mul (p f : field F) : masked f -> masked (fun k => p k * f k).
  Proof. intros H k Hk. rewrite (H k Hk). ring. Qed.

  (* sum over the band re-indexed by the reflection m -> -a-m (both factors vanish off the band) *)
  Lemma refl_sum a (g h : field F) : In a B -> masked g -> masked h ->
    fsum (map (fun m => g m * h (refl a m)) B) = fsum (map (fun m => g (refl a m) * h m) B).
  Proof.
    intros Ha Hg Hh. apply (in_bandD_iff D Kc a) in Ha. destruct Ha as [Hla _].
    rewrite (fsum_reindex_invol F (refl a) (fun m => in_band Kc (refl a m)) (fun m => g m * h (refl a m)) B (NoDup_bandD D Kc)).
    - apply fsum_map_ext. intros m Hm. apply (in_bandD_iff D Kc m) in Hm. rewrite refl_invol by lia. reflexivity.
    - intros m Hm E. apply (in_bandD_iff D Kc m) in Hm. rewrite (in_bandD_iff D Kc _), refl_length, refl_invol by lia. tauto.
    - intros m _ E. rewrite (Hh _ E), (Hg _ E). split; ring.
  Qed.

  Definition T3 (f g h : field F) : F := fsum (map (fun a => fsum (map (fun m => f a * g m * h (refl a m)) B)) B).

  Lemma T3_ext f f' g g' h h' : (forall k, in_band Kc k = true -> f k = f' k) -> (forall k, in_band Kc k = true -> g k = g' k) -> (forall k, h k = h' k) ->
    T3 f g h = T3 f' g' h'.
  Proof.
    intros Hf Hg Hh. unfold T3. apply fsum_map_ext. intros a Ha. apply fsum_map_ext. intros m Hm.
    apply (in_bandD_iff D Kc _) in Ha, Hm. rewrite (Hf a), (Hg m), Hh by tauto. reflexivity.
  Qed.

  Lemma T3_swap12 f g h : T3 f g h = T3 g f h.
  Proof.
    unfold T3. rewrite fsum_map_swap. apply fsum_map_ext. intros m Hm. apply fsum_map_ext. intros a Ha.
    apply (in_bandD_iff D Kc _) in Ha, Hm. rewrite (refl_comm a m) by lia. ring.
  Qed.

  Lemma T3_swap23 f g h : masked g -> masked h -> T3 f g h = T3 f h g.
  Proof.
    intros Hg Hh. unfold T3. apply fsum_map_ext. intros a Ha.
    transitivity (f a * fsum (map (fun m => g m * h (refl a m)) B)).
    - rewrite <- fsum_map_scal. apply fsum_map_ext. intros; ring.
    - rewrite (refl_sum a g h Ha Hg Hh). rewrite <- fsum_map_scal. apply fsum_map_ext. intros; ring.
  Qed.

  Lemma T3_rot f g h : masked f -> masked h -> T3 f g h = T3 g h f.
  Proof. intros Hf Hh. rewrite T3_swap12. apply T3_swap23; assumption. Qed.

  Lemma T3_add1 f f' g h : T3 (fun k => f k + f' k) g h = T3 f g h + T3 f' g h.
  Proof. unfold T3. rewrite <- fsum_map_add. apply fsum_map_ext. intros a _. rewrite <- fsum_map_add. apply fsum_map_ext. intros; ring. Qed.
  Lemma T3_scal1 c f g h : T3 (fun k => c * f k) g h = c * T3 f g h.
  Proof. unfold T3. rewrite <- fsum_map_scal. apply fsum_map_ext. intros a _. rewrite <- fsum_map_scal. apply fsum_map_ext. intros; ring. Qed.

  Lemma T3_scal2 c f g h : T3 f (fun k => c * g k) h = c * T3 f g h.
  Proof. rewrite T3_swap12, T3_scal1, (T3_swap12 g f h). reflexivity. Qed.

  (* derivative symbols: additive and odd on index vectors of length D *)
  Definition additive (phi : field F) : Prop := forall a m, length a = D -> length m = D -> phi a + phi m + phi (refl a m) = 0.

  Lemma dc_additive ii s c : additive (dc F ii s c).
  Proof. intros a m Ha Hm. unfold dc. rewrite refl_nth by lia. rewrite !fz_sub, fz_opp. ring. Qed.

  (* integration by parts: a derivative symbol moved through the three slots *)
  Lemma T3_by_parts phi f g h : additive phi ->
    T3 (fun k => phi k * f k) g h + T3 f (fun k => phi k * g k) h + T3 f g (fun k => phi k * h k) = 0.
  Proof.
    intros Hphi. unfold T3. rewrite <- !fsum_map_add. apply fsum_map_all_zero.
    intros a Ha. rewrite <- !fsum_map_add. apply fsum_map_all_zero.
    intros m Hm. apply (in_bandD_iff D Kc _) in Ha, Hm.
    transitivity ((phi a + phi m + phi (refl a m)) * (f a * g m * h (refl a m))); [ring|].
    rewrite (Hphi a m) by tauto. ring.
  Qed.

  (* the three terms of the integration by parts are one and the same sum *)
  Lemma T3_cubic_zero phi u : additive phi -> masked u -> T3 (fun k => phi k * u k) u u = 0.
  Proof.
    intros Hphi Hu. set (u' := fun k => phi k * u k).
    pose proof (T3_by_parts phi u u u Hphi) as H. fold u' in H.
    rewrite (T3_rot u u u' Hu (masked_mul phi u Hu)), (T3_swap12 u u' u) in H.
    assert (H3 : fz 3 * T3 u' u u = 0) by (cbn [fz fpos]; rewrite <- H; ring).
    apply (fmul_eq0 F) in H3. destruct H3 as [H3|H3]; [exfalso; revert H3; apply fz_neq0; discriminate | exact H3].
  Qed.
  Lemma T3_cubic_zero_last phi u : additive phi -> masked u -> T3 u u (fun k => phi k * u k) = 0.
  Proof. intros Hphi Hu. rewrite (T3_rot u u _ Hu (masked_mul phi u Hu)), T3_swap12. apply T3_cubic_zero; assumption. Qed.

  Definition pairing (f g : field F) : F := fsum (map (fun k => f (negi k) * g k) B).

  Lemma pairing_prod2 (f U V U' V' : field F) : (forall k, msk F Kc U k = U' k) -> (forall k, msk F Kc V k = V' k) ->
    pairing f (prod2 F D N Kc U V) = nfac F D N * T3 f U' V'.
  Proof.
    intros HU HV. unfold pairing, T3. rewrite (band_reindex F D Kc). rewrite <- fsum_map_scal. apply fsum_map_ext. intros a Ha.
    apply (in_bandD_iff D Kc _) in Ha. destruct Ha as [Hla Hba].
    rewrite negi_invol, (prod2_alias_free F D N Kc N_pos K_nonneg U V (negi a) K_small). unfold prod2L, msk at 1.
    rewrite in_band_negi, Hba. unfold lconv2. rewrite <- !fsum_map_scal. apply fsum_map_ext. intros m _. rewrite HU, HV. unfold refl. ring.
  Qed.

  Lemma pairing_prod2_msk (f U V : field F) : pairing f (prod2 F D N Kc U V) = nfac F D N * T3 f (msk F Kc U) (msk F Kc V).
  Proof. apply pairing_prod2; reflexivity. Qed.

  Lemma pairing_scal_r c f g : pairing f (fscal F c g) = c * pairing f g.
  Proof. unfold pairing, fscal. rewrite <- fsum_map_scal. apply fsum_map_ext. intros; ring. Qed.
  Lemma pairing_add_r f g g' : pairing f (fadd F g g') = pairing f g + pairing f g'.
  Proof. unfold pairing, fadd. rewrite <- fsum_map_add. apply fsum_map_ext. intros; ring. Qed.
  Lemma pairing_mul_r (p f g : field F) : pairing f (fmulp F p g) = pairing (fun k => p (negi k) * f k) g.
  Proof. unfold pairing, fmulp. apply fsum_map_ext. intros k _. rewrite negi_invol. ring. Qed.
  Lemma pairing_ext_r f g g' : (forall k, g k = g' k) -> pairing f g = pairing f g'.
  Proof. intros H. unfold pairing. apply fsum_map_ext. intros k _. rewrite H. reflexivity. Qed.

  Variables (ii s : F).

  Lemma pairing_fsumf f (l : list (field F)) : pairing f (fsumf F l) = fsum (map (pairing f) l).
  Proof.
    induction l as [|g l IH]; cbn [map fsum].
    - unfold pairing, fsumf. cbn [map fsum]. apply fsum_map_all_zero; intros; ring.
    - rewrite <- IH, <- pairing_add_r. apply pairing_ext_r. intros k. reflexivity.
  Qed.

  (* no work on u, for every state: the products mask their inputs *)
  Theorem conv_sc_cons_no_work (b : F) (u : field F) :
    pairing (msk F Kc u) (conv_sc_cons F (prod2 F D N Kc) ii s D b u) = 0.
  Proof.
    unfold conv_sc_cons. rewrite !pairing_scal_r.
    rewrite (pairing_ext_r _ _ (fsumf F (map (fun c => fmulp F (dc F ii s c) (prod2 F D N Kc u u)) (axes D)))).
    2:{ intros k. unfold fmulp, fsumf. rewrite !map_map. symmetry. apply fsum_map_scal_r. }
    rewrite pairing_fsumf, map_map, fsum_map_all_zero; [ring|].
    intros c _. rewrite pairing_mul_r, pairing_prod2_msk.
    rewrite (T3_ext _ (fun k => - (1) * (dc F ii s c k * msk F Kc u k)) _ (msk F Kc u) _ (msk F Kc u)), T3_scal1;
      [| intros k _; rewrite dc_negi; ring | reflexivity | reflexivity].
    rewrite (T3_cubic_zero (dc F ii s c) (msk F Kc u) (dc_additive ii s c) (masked_msk u)). ring.
  Qed.

  Theorem conv_sc_noncons_no_work (b : F) (u : field F) :
    pairing (msk F Kc u) (conv_sc_noncons F (prod2 F D N Kc) ii s D b u) = 0.
  Proof.
    unfold conv_sc_noncons. rewrite pairing_scal_r, pairing_fsumf, map_map.
    rewrite fsum_map_all_zero; [ring|].
    intros c _. rewrite (pairing_prod2 _ u _ (msk F Kc u) (fun k => dc F ii s c k * msk F Kc u k)); [| reflexivity | intros k; apply msk_mul].
    rewrite (T3_cubic_zero_last (dc F ii s c) (msk F Kc u) (dc_additive ii s c) (masked_msk u)). ring.
  Qed.

  Notation d0 := (dc F ii s 0).
  Notation d1 := (dc F ii s 1).
  (* the work <f, J(g, h)> of the Jacobian J(g, h) = d_1 g d_0 h - d_0 g d_1 h, as triple sums *)
  Definition jac (f g h : field F) : F := T3 f (fun k => d1 k * g k) (fun k => d0 k * h k) - T3 f (fun k => d0 k * g k) (fun k => d1 k * h k).

  (* integration by parts with d_0 and with d_1 *)
  Lemma jac_cyclic f g h : masked g -> masked h -> jac f g h = jac h f g.
  Proof.
    intros Hg Hh. unfold jac.
    assert (H3 : forall x y z : F, x + y + z = 0 -> z = - x - y) by (intros x y z H; transitivity (x + y + z - x - y); [ring | rewrite H; ring]).
    rewrite (H3 _ _ _ (T3_by_parts d0 f (fun k => d1 k * g k) h (dc_additive ii s 0))), (H3 _ _ _ (T3_by_parts d1 f (fun k => d0 k * g k) h (dc_additive ii s 1))).
    (* the two derivatives commute *)
    rewrite (T3_ext f f (fun k => d1 k * (d0 k * g k)) (fun k => d0 k * (d1 k * g k)) h h) by (intros; ring).
    rewrite (T3_rot h (fun k => d1 k * f k) (fun k => d0 k * g k) Hh (masked_mul d0 g Hg)), (T3_rot h (fun k => d0 k * f k) (fun k => d1 k * g k) Hh (masked_mul d1 g Hg)).
    ring.
  Qed.

  Lemma jac_swap23 f g h : masked g -> masked h -> jac f g h = - jac f h g.
  Proof.
    intros Hg Hh. unfold jac.
    rewrite (T3_swap23 f (fun k => d1 k * g k) (fun k => d0 k * h k)), (T3_swap23 f (fun k => d0 k * g k) (fun k => d1 k * h k)) by (apply masked_mul; assumption).
    ring.
  Qed.

  Lemma jac_repeat f g : masked g -> jac f g g = 0.
  Proof. intros Hg. apply feq_opp_0, jac_swap23; exact Hg. Qed.

  Lemma pairing_vorticity_conv (b : F) (w f : field F) :
    pairing f (vorticity_conv F (prod2 F D N Kc) ii s D b w)
    = - b * (nfac F D N * jac f (fun k => inv_lap_one F ii s D k * msk F Kc w k) (msk F Kc w)).
  Proof.
    unfold vorticity_conv, jac. set (lam := inv_lap_one F ii s D).
    rewrite pairing_scal_r, pairing_add_r, (pairing_prod2 f _ _ (fun k => d1 k * (lam k * msk F Kc w k)) (fun k => d0 k * msk F Kc w k)),
      (pairing_prod2 f _ _ (fun k => - (1) * (d0 k * (lam k * msk F Kc w k))) (fun k => d1 k * msk F Kc w k)), T3_scal2.
    - ring.
    - intros k. unfold fscal, fmulp. rewrite !msk_mul. reflexivity.
    - intros k. apply msk_mul.
    - intros k. unfold fmulp. rewrite !msk_mul. reflexivity.
    - intros k. apply msk_mul.
  Qed.

  (* no enstrophy work, <w, u.grad w> = 0, and no energy work, <psi, u.grad w> = 0 *)
  Theorem vorticity_conv_no_work (b : F) (w : field F) :
    let lam := inv_lap_one F ii s D in
    pairing (msk F Kc w) (vorticity_conv F (prod2 F D N Kc) ii s D b w) = 0
    /\ pairing (fun k => lam k * msk F Kc w k) (vorticity_conv F (prod2 F D N Kc) ii s D b w) = 0.
  Proof.
    intros lam. set (mw := msk F Kc w). set (psi := fun k => lam k * mw k).
    assert (Hmw : masked mw) by apply masked_msk. assert (Hpsi : masked psi) by (apply masked_mul, Hmw).
    rewrite !pairing_vorticity_conv. fold lam mw psi. split.
    - rewrite (jac_swap23 mw psi mw Hpsi Hmw), (jac_cyclic mw mw psi Hmw Hpsi), (jac_repeat psi mw Hmw). ring.
    - rewrite (jac_cyclic psi psi mw Hpsi Hmw), (jac_repeat mw psi Hpsi). ring.
  Qed.
End Energy.

Section Rot3Energy.
  Variable F : FieldT.
  Add Ring Ffr : (fring F).
  Local Open Scope fld_scope.
  Variables (N Kc : Z).
  Hypothesis N_pos : (0 < N)%Z.
  Hypothesis K_nonneg : (0 <= Kc)%Z.
  Hypothesis K_small : (3 * Kc < N)%Z.
  Variables (ii s : F).
  Notation P2 := (prod2 F 3 N Kc).
  Notation pr := (pairing F 3 Kc).
  Notation d := (dc F ii s).

  Notation Z0f := (fzero F).

  (* a . (a x b) = 0 at the level of band triple sums: for ANY second vector b *)
  Lemma triple_product_zero (a0 a1 a2 b0 b1 b2 : field F) :
    let c := cross F P2 [a0; a1; a2] [b0; b1; b2] in
    pr (msk F Kc a0) (nth 0 c Z0f) + pr (msk F Kc a1) (nth 1 c Z0f) + pr (msk F Kc a2) (nth 2 c Z0f) = 0.
  Proof.
    cbv zeta. unfold cross. cbn [nth].
    rewrite !(pairing_add_r F 3 Kc), !(pairing_scal_r F 3 Kc), !(pairing_prod2_msk F 3 N Kc N_pos K_nonneg K_small).
    rewrite (T3_swap12 F 3 Kc (msk F Kc a1) (msk F Kc a0) (msk F Kc b2)).
    rewrite (T3_swap12 F 3 Kc (msk F Kc a2) (msk F Kc a1) (msk F Kc b0)).
    rewrite (T3_swap12 F 3 Kc (msk F Kc a0) (msk F Kc a2) (msk F Kc b1)).
    ring.
  Qed.

  (* <f, grad p> = - <div f, p> = 0 for divergence-free f *)
  Lemma pairing_grad_zero (f0 f1 f2 p : field F) :
    (forall m, in_band Kc m = true -> d 0 m * f0 m + d 1 m * f1 m + d 2 m * f2 m = 0) ->
    pr f0 (fmulp F (d 0) p) + pr f1 (fmulp F (d 1) p) + pr f2 (fmulp F (d 2) p) = 0.
  Proof.
    intros Hdiv. unfold pairing, fmulp. rewrite <- !fsum_map_add. apply fsum_map_all_zero.
    intros k Hk. apply (in_bandD_iff 3 Kc k) in Hk. destruct Hk as [_ Hb].
    assert (Hn : in_band Kc (negi k) = true) by (rewrite in_band_negi; exact Hb).
    pose proof (Hdiv (negi k) Hn) as H. rewrite !dc_negi in H.
    transitivity (- p k * (- d 0 k * f0 (negi k) + - d 1 k * f1 (negi k) + - d 2 k * f2 (negi k))); [ring | rewrite H; ring].
  Qed.

  Lemma add3_zero (a0 a1 a2 g0 g1 g2 : F) : a0 + a1 + a2 = 0 -> g0 + g1 + g2 = 0 -> (a0 + g0) + (a1 + g1) + (a2 + g2) = 0.
  Proof. intros Ha Hg. transitivity ((a0 + a1 + a2) + (g0 + g1 + g2)); [ring | rewrite Ha, Hg; ring]. Qed.

  (* the projection adds the gradient of one scalar q to u x curl u: the first part does no work by the triple product, the second by
     incompressibility *)
  Theorem projected_conv_no_work (u0 u1 u2 : field F) :
    (forall m, in_band Kc m = true -> d 0 m * u0 m + d 1 m * u1 m + d 2 m * u2 m = 0) ->
    let Nl := projected_conv F P2 ii s 3 [u0; u1; u2] in
    pr (msk F Kc u0) (nth 0 Nl Z0f) + pr (msk F Kc u1) (nth 1 Nl Z0f) + pr (msk F Kc u2) (nth 2 Nl Z0f) = 0.
  Proof.
    intros Hdiv. cbv zeta. unfold projected_conv.
    set (c := cross F P2 [u0; u1; u2] (curl F ii s [u0; u1; u2])).
    set (q := fun k => - (1) * (inv_lap_zero F ii s 3 k * fsumf F (map2 (fun a uc => fmulp F (d a) uc) (axes 3) c) k)).
    assert (HL : forall i f, (i < 3)%nat -> pr f (nth i (leray F ii s 3 c) Z0f) = pr f (nth i c Z0f) + pr f (fmulp F (d i) q)).
    { intros i f Hi. rewrite <- (pairing_add_r F 3 Kc). apply pairing_ext_r. intros k. apply leray_nth; exact Hi. }
    rewrite !HL by lia. apply add3_zero; [apply triple_product_zero | apply pairing_grad_zero].
    intros m Hb. unfold msk. rewrite Hb. apply Hdiv, Hb.
  Qed.
End Rot3Energy.
