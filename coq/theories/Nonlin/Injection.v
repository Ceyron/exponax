(* Kolmogorov forcing terms (nonlin_fun/_vorticity_convection.py VorticityConvection2dKolmogorov.injection,
   nonlin_fun/_projected_convection.py ProjectedConvection3dKolmogorov.injection), per signed wavenumber vector k.
   The coef_extraction scaling at a mode is N per axis with k_c = 0 (or Nyquist) and N/2 per other axis. *)
From Coq Require Import ZArith List Bool Lia.
From EXV Require Import Base.Scalar Base.FieldLemmas Layout.Freq.
Ltac Zify.zify_post_hook ::= Z.to_euclidean_division_equations.   (* global: see Nonlin/ConvProofs.v *)
Import ListNotations.
Local Open Scope fld_scope.

Section Injection.
  Variable K : Ops.
  Definition ax_scale (N kc : Z) (last : bool) : K :=
    if axis_plain N kc last then fz N else fz N / fz 2.
  (* 2D vorticity: mask (k_0 = 0) & (k_1 = kinj); value -imag(d_1) * gamma * scaling, d_1 = i s k_1 *)
  Definition injection2d (s gamma : K) (N kinj : Z) (k : list Z) : K :=
    if (nth 0 k 0 =? 0)%Z && (nth 1 k 0 =? kinj)%Z
    then - (s * fz (nth 1 k 0%Z)) * gamma * (ax_scale N (nth 0 k 0%Z) false * ax_scale N (nth 1 k 0%Z) true)
    else 0.
  Definition sgn (z : Z) : K := match z with Z0 => 0 | Zpos _ => 1 | Zneg _ => - (1) end.
  (* 3D velocity, channel 0: mask (k_0 = 0) & (|k_1| = kinj) & (k_2 = 0); value -i sign(k_1) gamma * scaling; channels 1, 2: 0 *)
  Definition injection3d (ii gamma : K) (N kinj : Z) (channel : nat) (k : list Z) : K :=
    match channel with
    | O => if (nth 0 k 0 =? 0)%Z && (Z.abs (nth 1 k 0) =? kinj)%Z && (nth 2 k 0 =? 0)%Z
           then - ii * sgn (nth 1 k 0%Z) * gamma
                * (ax_scale N (nth 0 k 0%Z) false * ax_scale N (nth 1 k 0%Z) false * ax_scale N (nth 2 k 0%Z) true)
           else 0
    | _ => 0
    end.
End Injection.

(* the mean mode is stored whole on every axis; a nonzero wavenumber strictly below N/2 is neither the mean nor the Nyquist mode *)
Lemma axis_plain_0 N b : axis_plain N 0 b = true.
Proof. reflexivity. Qed.
Lemma axis_plain_interior N k b : (k <> 0 -> 2 * Z.abs k < N -> axis_plain N k b = false)%Z.
Proof.
  intros H0 H2. unfold axis_plain. destruct (Z.even N) eqn:En; [apply Z.even_spec in En; destruct En as [c Hc]|]; destruct b; cbn [andb]; lia.
Qed.

Section InjectionProofs.
  Variable F : FieldT.
  Add Ring Ff : (fring F).
  Variables (ii s gamma : F) (N kinj : Z).
  Hypothesis Hk : (0 < kinj)%Z /\ (2 * kinj < N)%Z.

  Lemma sgn_is_Zsgn (z : Z) : sgn F z = fz (Z.sgn z).
  Proof. destruct z; reflexivity. Qed.

  Definition NN : F := fz N.
  (* 2D: exactly the stored mode (0, kinj) carries N^2/2 * a with a = -kappa*gamma (kappa = s*kinj):
     the rfftn of a*cos(kappa x_1) (C04_single_mode: a cosine puts n*a/2 on the stored character) *)
  Theorem injection2d_spec (k : list Z) :
    injection2d F s gamma N kinj k
    = if ((nth 0 k 0 =? 0) && (nth 1 k 0 =? kinj))%Z then NN * (NN / fz 2) * (- (s * fz kinj) * gamma) else 0.
  Proof.
    unfold injection2d. destruct ((nth 0 k 0 =? 0)%Z && (nth 1 k 0 =? kinj)%Z) eqn:E; [|reflexivity].
    apply andb_true_iff in E. destruct E as [E0 E1]. apply Z.eqb_eq in E0, E1. rewrite E0, E1.
    unfold ax_scale. rewrite (axis_plain_interior N kinj true), axis_plain_0 by lia. unfold NN. ring.
  Qed.

  (* 3D: channel 0 carries N^3/2 * (-i gamma) at (0, +kinj, 0) and N^3/2 * (+i gamma) at (0, -kinj, 0):
     the transform of gamma*sin(kappa x_1) = gamma (e^{i theta} - e^{-i theta})/(2i); the other channels are not forced *)
  Theorem injection3d_spec (k : list Z) (ch : nat) :
    injection3d F ii gamma N kinj ch k
    = match ch with
      | O => if ((nth 0 k 0 =? 0) && (nth 1 k 0 =? kinj) && (nth 2 k 0 =? 0))%Z then NN * (NN / fz 2) * NN * (- ii * gamma)
             else if ((nth 0 k 0 =? 0) && (nth 1 k 0 =? - kinj) && (nth 2 k 0 =? 0))%Z then NN * (NN / fz 2) * NN * (ii * gamma)
             else 0
      | _ => 0
      end.
  Proof.
    destruct ch as [|ch]; [|reflexivity]. unfold injection3d. destruct Hk as [H1 H2].
    destruct (nth 0 k 0 =? 0)%Z eqn:E0; cbn [andb]; [|reflexivity].
    destruct (nth 2 k 0 =? 0)%Z eqn:E2; rewrite ?andb_false_r; [|reflexivity].
    apply Z.eqb_eq in E0, E2. rewrite E0, E2. rewrite !andb_true_r.
    destruct (Z.eqb_spec (nth 1 k 0%Z) kinj) as [Ea|Ea].
    - rewrite Ea. replace (Z.abs kinj =? kinj)%Z with true by lia. unfold ax_scale. rewrite (axis_plain_interior N kinj false), !axis_plain_0 by lia.
      rewrite sgn_is_Zsgn, Z.sgn_pos by exact H1. unfold NN. cbn [fz fpos]. ring.
    - destruct (Z.eqb_spec (nth 1 k 0%Z) (- kinj)) as [Eb|Eb].
      + rewrite Eb. replace (Z.abs (- kinj) =? kinj)%Z with true by lia. unfold ax_scale. rewrite (axis_plain_interior N (- kinj) false), !axis_plain_0 by lia.
        rewrite sgn_is_Zsgn, Z.sgn_neg by lia. unfold NN. cbn [fz fpos]. ring.
      + replace (Z.abs (nth 1 k 0) =? kinj)%Z with false by lia. reflexivity.
  Qed.
End InjectionProofs.
