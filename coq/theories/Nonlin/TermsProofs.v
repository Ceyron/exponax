(* Lemmas of the term models of Nonlin/Terms.v.  The term definitions use the products only through P2 / P3, so two product operators
   that agree mode by mode give the same terms (Section Lift; Props/C03.v applies this to the circular and the alias-free product). *)
From Coq Require Import ZArith Field List Lia.
From EXV Require Import Base.Scalar Base.FieldLemmas Spectral.Symbols Spectral.ListLemmas Nonlin.Conv Nonlin.Terms.
Import ListNotations.
Local Open Scope fld_scope.

Lemma map2_ext_in {A B C} (f g : A -> B -> C) l1 l2 : (forall a b, f a b = g a b) -> map2 f l1 l2 = map2 g l1 l2.
Proof. intros H. apply map2_ext. intros a b _. apply H. Qed.

Section FieldLists.
  Variable F : FieldT.
  Add Field Fffl : (fth F).
  Notation fld := (field F).
  Notation Z0f := (fzero F).

  Lemma dc_at_zero (ii s : F) c k : nth c k 0%Z = 0%Z -> dc F ii s c k = 0.
  Proof. intros H. unfold dc. rewrite H. cbn [fz]. ring. Qed.

  Lemma conv_mc_noncons_1d P2 (ii s b : F) (u : fld) k : nth 0 (conv_mc_noncons F P2 ii s 1 b [u]) Z0f k = conv_sc_noncons F P2 ii s 1 b u k.
  Proof. reflexivity. Qed.

  Lemma gradient_norm_eq P2 (ii s : F) D b zf (u : fld) k :
    gradient_norm F P2 ii s D b zf u k
    = - b * (half F * (if andb zf (is_zero k) then 0 else fsumf F (map (fun c => P2 (fmulp F (dc F ii s c) u) (fmulp F (dc F ii s c) u)) (axes D)) k)).
  Proof. unfold gradient_norm, fscal. destruct zf; reflexivity. Qed.

  Lemma nth_map_ptw {A} (f g : A -> fld) (l : list A) i k :
    (forall a, f a k = g a k) -> nth i (map f l) Z0f k = nth i (map g l) Z0f k.
  Proof. intros H. revert i. induction l as [|a l IH]; intros [|i]; cbn [map nth]; try reflexivity; [apply H | apply IH]. Qed.

  Lemma nth_map2_ptw {A B} (f g : A -> B -> fld) (l1 : list A) (l2 : list B) i k :
    (forall a b, f a b k = g a b k) -> nth i (map2 f l1 l2) Z0f k = nth i (map2 g l1 l2) Z0f k.
  Proof.
    intros H. revert l2 i. induction l1 as [|a l1 IH]; intros [|b l2] [|i]; cbn [map2 nth]; try reflexivity; [apply H | apply IH].
  Qed.

  Lemma fsumf_map_ext {A} (f g : A -> fld) (l : list A) k : (forall a, f a k = g a k) -> fsumf F (map f l) k = fsumf F (map g l) k.
  Proof. intros H. unfold fsumf. f_equal. rewrite !map_map. apply map_ext. exact H. Qed.

  Lemma fsumf_map_scal {A} (f g : A -> fld) (l : list A) (w : F) k : (forall a, f a k = w * g a k) -> fsumf F (map f l) k = w * fsumf F (map g l) k.
  Proof. intros H. unfold fsumf. rewrite !map_map, <- fsum_map_scal. apply fsum_map_ext. intros a _. apply H. Qed.

  Lemma fsumf_map2_ptw {A B} (f g : A -> B -> fld) (l1 : list A) (l2 : list B) k :
    (forall a b, f a b k = g a b k) -> fsumf F (map2 f l1 l2) k = fsumf F (map2 g l1 l2) k.
  Proof.
    intros H. unfold fsumf. f_equal. revert l2. induction l1 as [|a l1 IH]; intros [|b l2]; cbn [map2 map]; try reflexivity.
    rewrite H, IH. reflexivity.
  Qed.

  Lemma fsumf_map2_args (f : nat -> field F -> field F) ax (u v : list fld) k :
    length u = length v -> (forall i, nth i u Z0f k = nth i v Z0f k) ->
    (forall c a b, a k = b k -> f c a k = f c b k) ->
    fsumf F (map2 f ax u) k = fsumf F (map2 f ax v) k.
  Proof.
    intros Hl H Hf. unfold fsumf. f_equal. revert u v Hl H.
    induction ax as [|c ax IH]; intros [|a u] [|b v] Hl H; cbn in Hl; try discriminate; cbn [map2 map]; try reflexivity.
    f_equal; [apply Hf; exact (H 0%nat) | apply IH; [lia | intros j; exact (H (S j))]].
  Qed.

  Lemma nth_map2_args (f g : nat -> field F -> field F) ax (u v : list fld) k :
    length u = length v -> (forall i, nth i u Z0f k = nth i v Z0f k) ->
    (forall c a b, a k = b k -> f c a k = g c b k) ->
    forall i, nth i (map2 f ax u) Z0f k = nth i (map2 g ax v) Z0f k.
  Proof.
    intros Hl H Hf. revert u v Hl H.
    induction ax as [|c ax IH]; intros [|a u] [|b v] Hl H i; cbn in Hl; try discriminate; cbn [map2]; try reflexivity.
    destruct i as [|i]; cbn [nth]; [apply Hf; exact (H 0%nat) | apply IH; [lia | intros j; exact (H (S j))]].
  Qed.

  Lemma leray_ext (ii s : F) (D : nat) (u v : list fld) k : length u = length v ->
    (forall i, nth i u Z0f k = nth i v Z0f k) ->
    forall i, nth i (leray F ii s D u) Z0f k = nth i (leray F ii s D v) Z0f k.
  Proof.
    intros Hl H. unfold leray. apply nth_map2_args; [exact Hl | exact H|].
    intros c a b Hab. unfold fadd, fmulp, fscal. rewrite Hab. f_equal. f_equal. f_equal. f_equal.
    apply fsumf_map2_args; [exact Hl | exact H|]. intros c' a' b' H'. unfold fmulp. rewrite H'. reflexivity.
  Qed.

  Lemma leray_nth (ii s : F) (D : nat) (u : list fld) i k : (i < D)%nat -> (i < length u)%nat ->
    nth i (leray F ii s D u) Z0f k
    = nth i u Z0f k + dc F ii s i k * (- (1) * (inv_lap_zero F ii s D k * fsumf F (map2 (fun c uc => fmulp F (dc F ii s c) uc) (axes D) u) k)).
  Proof.
    intros Hi Hu. unfold leray. rewrite (nth_map2 _ _ _ i _ 0%nat Z0f) by (unfold axes; rewrite ?seq_length; assumption).
    unfold axes at 1. rewrite seq_nth by exact Hi. reflexivity.
  Qed.

  Lemma leray_gradient (ii s : F) (D : nat) (cs : list fld) (phi : F) i k : length cs = D -> (i < D)%nat ->
    (forall j, (j < D)%nat -> nth j cs Z0f k = dc F ii s j k * phi) -> lap F ii s D k <> 0 \/ phi = 0 ->
    nth i (leray F ii s D cs) Z0f k = 0.
  Proof.
    intros Hl Hi Hg Hphi. rewrite leray_nth, (Hg i Hi) by lia.
    assert (E : fsumf F (map2 (fun c uc => fmulp F (dc F ii s c) uc) (axes D) cs) k = lap F ii s D k * phi).
    { unfold fsumf, axes, lap. rewrite (map2_seq0 _ cs Z0f D Hl), map_map, <- fsum_map_scal_r. apply fsum_map_ext.
      intros j Hj. apply in_seq in Hj. unfold fmulp. rewrite (Hg j) by lia. ring. }
    rewrite E. destruct Hphi as [Hlap | ->]; [|ring]. unfold inv_lap_zero.
    destruct (oeqb (lap F ii s D k) 0) eqn:E0; [apply (feqb_ok F) in E0; contradiction | field; exact Hlap].
  Qed.
End FieldLists.

Section Lift.
  Variable F : FieldT.
  Variable M : field F -> field F.
  Variables P2 P2' : field F -> field F -> field F.
  Variables P3 P3' : field F -> field F -> field F -> field F.
  Hypothesis H2 : forall U V k, P2 U V k = P2' U V k.
  Hypothesis H3 : forall U V W k, P3 U V W k = P3' U V W k.
  Variables (ii s : F) (D : nat) (ND : F).

  Lemma conv_sc_cons_lift b u k : conv_sc_cons F P2 ii s D b u k = conv_sc_cons F P2' ii s D b u k.
  Proof. unfold conv_sc_cons, fscal, fmulp. rewrite H2. reflexivity. Qed.
  Lemma conv_sc_noncons_lift b u k : conv_sc_noncons F P2 ii s D b u k = conv_sc_noncons F P2' ii s D b u k.
  Proof. unfold conv_sc_noncons, fscal. f_equal. apply fsumf_map_ext. intros c. apply H2. Qed.
  Lemma gradient_norm_lift b z u k : gradient_norm F P2 ii s D b z u k = gradient_norm F P2' ii s D b z u k.
  Proof.
    rewrite !gradient_norm_eq. destruct (andb z (is_zero k)); [reflexivity|]. apply f_equal, f_equal, fsumf_map_ext. intros c. apply H2.
  Qed.
  Lemma polynomial_lift c0 c1 c2 c3 u k :
    polynomial F M P2 P3 ND c0 c1 c2 c3 u k = polynomial F M P2' P3' ND c0 c1 c2 c3 u k.
  Proof. unfold polynomial. rewrite H2, H3. reflexivity. Qed.
  Lemma general_nonlinear_lift b0 b1 b2 z u k :
    general_nonlinear F M P2 P3 ii s D ND b0 b1 b2 z u k = general_nonlinear F M P2' P3' ii s D ND b0 b1 b2 z u k.
  Proof.
    unfold general_nonlinear, fadd. rewrite polynomial_lift, conv_sc_cons_lift, gradient_norm_lift. reflexivity.
  Qed.
  Lemma vorticity_conv_lift b w k : vorticity_conv F P2 ii s D b w k = vorticity_conv F P2' ii s D b w k.
  Proof. unfold vorticity_conv, fscal, fadd. rewrite !H2. reflexivity. Qed.
  Lemma cahn_hilliard_lift sc u k : cahn_hilliard F P3 ii s D sc u k = cahn_hilliard F P3' ii s D sc u k.
  Proof. unfold cahn_hilliard, fscal, fmulp. rewrite H3. reflexivity. Qed.
  Lemma gray_scott_lift f kr u0 u1 i k :
    nth i (gray_scott F M P3 ND f kr u0 u1) (fzero F) k = nth i (gray_scott F M P3' ND f kr u0 u1) (fzero F) k.
  Proof. unfold gray_scott. destruct i as [|[|i]]; cbn [nth]; rewrite ?H3; reflexivity. Qed.

  Lemma conv_mc_cons_lift b u i k :
    nth i (conv_mc_cons F P2 ii s D b u) (fzero F) k = nth i (conv_mc_cons F P2' ii s D b u) (fzero F) k.
  Proof.
    unfold conv_mc_cons. apply nth_map_ptw. intros ui. unfold fscal. f_equal. f_equal.
    apply fsumf_map2_ptw. intros c uj. unfold fmulp. rewrite H2. reflexivity.
  Qed.
  Lemma conv_mc_noncons_lift b u i k :
    nth i (conv_mc_noncons F P2 ii s D b u) (fzero F) k = nth i (conv_mc_noncons F P2' ii s D b u) (fzero F) k.
  Proof.
    unfold conv_mc_noncons. apply nth_map_ptw. intros ui. unfold fscal. f_equal.
    apply fsumf_map2_ptw. intros c uj. apply H2.
  Qed.

  Lemma cross_lift a b i k : nth i (cross F P2 a b) (fzero F) k = nth i (cross F P2' a b) (fzero F) k.
  Proof. destruct i as [|[|[|i]]]; cbn [nth cross]; unfold fadd, fscal; rewrite ?H2; reflexivity. Qed.

  Lemma projected_conv_lift u i k :
    nth i (projected_conv F P2 ii s D u) (fzero F) k = nth i (projected_conv F P2' ii s D u) (fzero F) k.
  Proof. unfold projected_conv. apply leray_ext; [reflexivity | intros j; apply cross_lift]. Qed.
End Lift.
