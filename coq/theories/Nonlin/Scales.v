(* C13: how the built-in nonlinear terms depend on the domain extent.  The derivative operator carries the factor s = 2 pi / L; a term with
   one derivative is linear in s, the gradient norm quadratic, the polynomial terms independent, so the physical term with scale b on the
   domain L equals the unit-domain term with the scale b s (resp. b s^2): exactly the normalisation beta_1 = b dt / L, beta_2 = b dt / L^2 of
   the normalized steppers once multiplied by the step dt (C13_only_groups_matter).  For every product operator P2/P3, every D, every state. *)
From Coq Require Import ZArith List.
From EXV Require Import Base.Scalar Base.FieldLemmas Nonlin.Conv Nonlin.ConvProofs Nonlin.Terms Nonlin.TermsProofs.
Import ListNotations.

Section Scales.
  Variable F : FieldT.
  Add Ring Ffsc : (fring F).
  Local Open Scope fld_scope.
  Variable P2 : field F -> field F -> field F.
  (* what is asked of the product: scalars come out of each factor, and it depends on its factors pointwise (proved of prod2 below) *)
  Hypothesis P2_scal_l : forall c U V k, P2 (fun x => c * U x) V k = c * P2 U V k.
  Hypothesis P2_scal_r : forall c U V k, P2 U (fun x => c * V x) k = c * P2 U V k.
  Hypothesis P2_ext : forall U U' V V' k, (forall x, U x = U' x) -> (forall x, V x = V' x) -> P2 U V k = P2 U' V' k.
  Variables (ii s : F) (D : nat).

  Lemma dc_scale c k : dc F ii s c k = s * dc F ii 1 c k.
  Proof. unfold dc. ring. Qed.

  Theorem conv_sc_cons_scale b u k : conv_sc_cons F P2 ii s D b u k = conv_sc_cons F P2 ii 1 D (b * s) u k.
  Proof.
    unfold conv_sc_cons, fscal, fmulp. rewrite (fsumf_map_scal F _ (dc F ii 1) _ s) by (intros; apply dc_scale). ring.
  Qed.

  Theorem conv_sc_noncons_scale b u k : conv_sc_noncons F P2 ii s D b u k = conv_sc_noncons F P2 ii 1 D (b * s) u k.
  Proof.
    unfold conv_sc_noncons, fscal. rewrite (fsumf_map_scal F _ (fun c => P2 u (fmulp F (dc F ii 1 c) u)) _ s); [ring|].
    intros c. rewrite <- P2_scal_r. apply P2_ext; [reflexivity|]. intros x. unfold fmulp. rewrite dc_scale. ring.
  Qed.

  Theorem gradient_norm_scale b zf u k : gradient_norm F P2 ii s D b zf u k = gradient_norm F P2 ii 1 D (b * s * s) zf u k.
  Proof.
    rewrite !gradient_norm_eq. destruct (andb zf (is_zero k)); [ring|].
    rewrite (fsumf_map_scal F _ (fun c => P2 (fmulp F (dc F ii 1 c) u) (fmulp F (dc F ii 1 c) u)) _ (s * s)); [ring|].
    intros c. transitivity (P2 (fun x => s * fmulp F (dc F ii 1 c) u x) (fun x => s * fmulp F (dc F ii 1 c) u x) k).
    - apply P2_ext; intros x; unfold fmulp; rewrite dc_scale; ring.
    - rewrite P2_scal_l, P2_scal_r. ring.
  Qed.

End Scales.

Section Prod2Scal.
  Variable F : FieldT.
  Add Ring Ffsc2 : (fring F).
  Local Open Scope fld_scope.
  Variables (D : nat) (N Kc : Z).
  Lemma prod2_scal_l c (U V : field F) k : prod2 F D N Kc (fun x => c * U x) V k = c * prod2 F D N Kc U V k.
  Proof. apply (prod2_weighted F D N Kc (fun _ => c) (fun _ => 1)); intros; ring. Qed.
  Lemma prod2_scal_r c (U V : field F) k : prod2 F D N Kc U (fun x => c * V x) k = c * prod2 F D N Kc U V k.
  Proof. apply (prod2_weighted F D N Kc (fun _ => 1) (fun _ => c)); intros; ring. Qed.
  Lemma prod2_ext_all (U U' V V' : field F) k : (forall x, U x = U' x) -> (forall x, V x = V' x) -> prod2 F D N Kc U V k = prod2 F D N Kc U' V' k.
  Proof. apply prod2_ext. Qed.

  Variables (ii s : F).
  Theorem builtin_terms_scale (b : F) (zf : bool) (u : field F) (k : idx) :
    conv_sc_cons F (prod2 F D N Kc) ii s D b u k = conv_sc_cons F (prod2 F D N Kc) ii 1 D (b * s) u k
    /\ conv_sc_noncons F (prod2 F D N Kc) ii s D b u k = conv_sc_noncons F (prod2 F D N Kc) ii 1 D (b * s) u k
    /\ gradient_norm F (prod2 F D N Kc) ii s D b zf u k = gradient_norm F (prod2 F D N Kc) ii 1 D (b * s * s) zf u k.
  Proof.
    split; [|split].
    - apply conv_sc_cons_scale.
    - apply conv_sc_noncons_scale; [apply prod2_scal_r | apply prod2_ext_all].
    - apply gradient_norm_scale; [apply prod2_scal_l | apply prod2_scal_r | apply prod2_ext_all].
  Qed.
End Prod2Scal.
