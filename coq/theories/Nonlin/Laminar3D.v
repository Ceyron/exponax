(* C12: the laminar subspaces of the Kolmogorov flows.
   2D: a vorticity depending on x_1 only (spectrum supported on k_0 = 0) is annihilated by the vorticity convection: in each of its two
   products one factor carries d_0 w = 0.
   3D: a velocity field (u_0(x_1), 0, 0) - spectrum of channel 0 supported on the axis k = (0, j, 0), channels 1 and 2 zero - is annihilated
   by the projected rotational convection: u x curl u = (0, u_0 d_1 u_0, 0) is mode by mode a gradient and the Leray projection removes it
   (its mean vanishes by antisymmetry). *)
From Coq Require Import ZArith Bool Field List Lia.
From EXV Require Import Base.Scalar Base.FieldLemmas Spectral.Symbols Nonlin.Conv Nonlin.ConvProofs Nonlin.Terms Nonlin.TermsProofs Nonlin.MeanFree.
Import ListNotations.

Section Laminar2D.
  Variable F : FieldT.
  Add Ring Ffl : (fring F).
  Local Open Scope fld_scope.
  Variables (D : nat) (N Kc : Z) (ii s b : F).
  Variable w : field F.
  Hypothesis w_support : forall k, nth 0 k 0%Z <> 0%Z -> w k = 0.

  Theorem vorticity_conv_laminar k : vorticity_conv F (prod2 F D N Kc) ii s D b w k = 0.
  Proof.
    assert (Hd : forall x, dc F ii s 0 x * w x = 0).
    { intros x. destruct (Z.eq_dec (nth 0 x 0%Z) 0) as [E|E]; [rewrite (dc_at_zero F ii s 0 x E) | rewrite (w_support x E)]; ring. }
    unfold vorticity_conv, fscal, fadd.
    rewrite (prod2_zero_r F D N Kc _ (fmulp F (dc F ii s 0) w)) by exact Hd.
    rewrite (prod2_zero_l F D N Kc (fun k0 => - (1) * fmulp F (dc F ii s 0) (fmulp F (inv_lap_one F ii s D) w) k0)); [ring|].
    intros x. unfold fmulp. transitivity (- (1) * inv_lap_one F ii s D x * (dc F ii s 0 x * w x)); [ring | rewrite Hd; ring].
  Qed.
End Laminar2D.

Section Laminar3D.
  Variable F : FieldT.
  Add Field Ffl3 : (fth F).
  Local Open Scope fld_scope.
  Variables (N Kc : Z) (ii s : F).
  Hypothesis N_pos : (0 < N)%Z.
  Hypothesis K_nonneg : (0 <= Kc)%Z.
  Hypothesis K_small : (2 * Kc < N)%Z.
  Hypothesis ii_nz : ii <> 0.
  Hypothesis s_nz : s <> 0.
  Notation P2 := (prod2 F 3 N Kc).
  Notation d := (dc F ii s).

  Definition off_axis (k : idx) : Prop := nth 0 k 0%Z <> 0%Z \/ nth 2 k 0%Z <> 0%Z.
  Definition supp (U : field F) : Prop := forall k, off_axis k -> U k = 0.

  Lemma off_axis_dec k : {off_axis k} + {nth 0 k 0%Z = 0%Z /\ nth 2 k 0%Z = 0%Z}.
  Proof. unfold off_axis. destruct (Z.eq_dec (nth 0 k 0%Z) 0), (Z.eq_dec (nth 2 k 0%Z) 0); auto. Qed.

  Lemma prod2_supp U V k : supp U -> supp V -> length k = 3%nat -> off_axis k -> P2 U V k = 0.
  Proof.
    intros HU HV Hl Hoff. unfold prod2, msk at 1. destruct (in_band Kc k) eqn:Hb; [|reflexivity].
    unfold cconv2. rewrite fsum_map_all_zero; [ring|].
    intros m Hm. apply (in_bandD_iff 3 Kc m) in Hm. destruct Hm as [Hlm Hbm].
    destruct (off_axis_dec m) as [Hom|[Hm0 Hm2]].
    - unfold msk at 1. rewrite Hbm, (HU m Hom). ring.
    - assert (Hx : off_axis (wrapD N (subi k m))).
      { destruct k as [|k0 [|k1 [|k2 [|]]]]; try discriminate. destruct m as [|m0 [|m1 [|m2 [|]]]]; try discriminate.
        cbn [nth] in *. subst m0 m2. unfold off_axis, wrapD, subi. cbn [map2 map nth].
        cbn [in_band forallb] in Hb. rewrite !andb_true_iff in Hb. destruct Hb as (Hb0 & Hb1 & Hb2 & _).
        apply Z.leb_le in Hb0, Hb2.
        rewrite !Z.sub_0_r, !(wrap1_small N _ N_pos) by lia. exact Hoff. }
      unfold msk at 2. destruct (in_band Kc (wrapD N (subi k m))); [rewrite (HV _ Hx)|]; ring.
  Qed.

  Variable u0 : field F.
  Hypothesis u0_supp : supp u0.

  (* the only non-zero component of u x curl u *)
  Definition rot1 : field F := P2 u0 (fmulp F (d 1) u0).

  Lemma cross_laminar k :
    let c := cross F P2 [u0; fzero F; fzero F] (curl F ii s [u0; fzero F; fzero F]) in
    nth 0 c (fzero F) k = 0 /\ nth 1 c (fzero F) k = rot1 k /\ nth 2 c (fzero F) k = 0.
  Proof.
    cbv zeta. split; [|split]; cbn [nth cross curl]; unfold fadd, fscal; rewrite !(prod2_zero_l F 3 N Kc (fzero F)) by reflexivity.
    - ring.
    - (* omega_2 = d_0 0 - d_1 u_0 = - d_1 u_0 *)
      rewrite (prod2_weighted F 3 N Kc (fun _ => 1) (fun _ => - (1)) (- (1)) u0 u0 (fmulp F (d 1) u0)); [unfold rot1; ring | intros; ring..|].
      intros x. unfold fmulp, fzero. ring.
    - rewrite (prod2_zero_r F 3 N Kc u0); [ring|].
      intros x. unfold fmulp, fzero. destruct (off_axis_dec x) as [Hx|[_ Hx2]]; [rewrite (u0_supp x Hx) | rewrite (dc_at_zero F ii s 2 x Hx2)]; ring.
  Qed.

  (* the projected rotational convection vanishes identically on the laminar subspace: u x curl u = (0, rot1, 0) is, mode by mode,
     the gradient of phi = rot1 / d_1 on the axis (where d_0 = d_2 = 0) and vanishes off it and at the mean mode *)
  Theorem projected_conv_laminar (i : nat) (k : idx) : (i < 3)%nat -> length k = 3%nat ->
    nth i (projected_conv F P2 ii s 3 [u0; fzero F; fzero F]) (fzero F) k = 0.
  Proof.
    intros Hi Hl. unfold projected_conv. destruct (cross_laminar k) as (H0 & H1 & H2).
    assert (Hz : rot1 k = 0 -> nth i (leray F ii s 3 (cross F P2 [u0; fzero F; fzero F] (curl F ii s [u0; fzero F; fzero F]))) (fzero F) k = 0).
    { intros Hc. apply (leray_gradient F ii s 3 _ 0); [reflexivity | exact Hi | | right; reflexivity].
      intros [|[|[|j]]] Hj; [rewrite H0 | rewrite H1, Hc | rewrite H2 | lia]; ring. }
    destruct (off_axis_dec k) as [Hoff|[Hk0 Hk2]].
    { (* both factors of rot1 are supported on the axis *)
      apply Hz, prod2_supp; [exact u0_supp | | exact Hl | exact Hoff]. intros x Hx. unfold fmulp. rewrite (u0_supp x Hx). ring. }
    destruct (Z.eq_dec (nth 1 k 0%Z) 0) as [Hk1|Hk1].
    { apply Hz. replace k with (zeros 3); [apply (prod2_deriv_dc F 3 N Kc N_pos K_nonneg K_small)|]. clear - Hl Hk0 Hk1 Hk2. destruct k as [|k0 [|k1 [|k2 [|]]]]; try discriminate. cbn [nth] in *. subst. reflexivity. }
    assert (Hd1 : d 1 k <> 0) by (apply (fmul_neq0 F _ _ ii_nz), (fmul_neq0 F _ _ s_nz), fz_neq0, Hk1).
    apply (leray_gradient F ii s 3 _ (rot1 k / d 1 k)); [reflexivity | exact Hi | | left].
    - intros [|[|[|j]]] Hj; [rewrite H0, (dc_at_zero F ii s 0 k Hk0); ring | rewrite H1; field; exact Hd1 | rewrite H2, (dc_at_zero F ii s 2 k Hk2); ring | lia].
    - unfold lap, axes. cbn [seq map fsum]. rewrite (dc_at_zero F ii s 0 k Hk0), (dc_at_zero F ii s 2 k Hk2). intros E.
      apply (fmul_neq0 F _ _ Hd1 Hd1). rewrite <- E. ring.
  Qed.
End Laminar3D.
