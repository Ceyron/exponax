(* The ETD tableaux depend on (h, lambda, N) only through z = h*lambda (with E = e^z, Eh = e^{z/2}) and h*N:
   a stepper with (h, N) equals the stepper with time step 1 and nonlinear term h*N.  This is the scheme-level
   reason why only the non-dimensional groups alpha_j = a_j dt / L^j, beta = b dt / L^m matter (C13). *)
From Coq Require Import Ring.
From EXV Require Import Base.Scalar Base.FieldLemmas ETDRK.Phi ETDRK.Stages.
Local Open Scope fld_scope.

Section Scaling.
  Variable F : FieldT.
  Add Ring Fr : (fring F).
  Variable I : Type.
  Variable h : F.
  Variables z E Eh : I -> F.
  Variable N : (I -> F) -> (I -> F).
  Hypothesis N_ext : forall u v, (forall k, u k = v k) -> forall k, N u k = N v k.
  Let hN : (I -> F) -> (I -> F) := fun v k => h * N v k.

  Lemma hN_ext u v : (forall k, u k = v k) -> forall k, hN u k = hN v k.
  Proof. intros H k. unfold hN. rewrite (N_ext u v H). reflexivity. Qed.

  (* the two runs go through the same stage states; where the first sees a value a of N the second sees h * a *)
  Definition scaled (a a' : I -> F) : Prop := forall k, a' k = h * a k.
  Lemma scaled_N v v' : same v v' -> scaled (N v) (hN v').
  Proof. intros H k. symmetry. exact (hN_ext v v' H k). Qed.

  Lemma etd1_scaling u k : etd1 h z E N u k = etd1 1 z E hN u k.
  Proof. unfold etd1, hN. ring. Qed.
  Lemma etd2rk_scaling u k : etd2rk h z E N u k = etd2rk 1 z E hN u k.
  Proof. rewrite !etd2rk_run. revert k. apply (run_sim N hN same scaled same scaled_N); [intros ?; reflexivity | ..]; sim_rows; ring. Qed.
  Lemma etd3rk_scaling u k : etd3rk h z E Eh N u k = etd3rk 1 z E Eh hN u k.
  Proof. rewrite !etd3rk_run. revert k. apply (run_sim N hN same scaled same scaled_N); [intros ?; reflexivity | ..]; sim_rows; ring. Qed.
  Lemma etd4rk_scaling u k : etd4rk h z E Eh N u k = etd4rk 1 z E Eh hN u k.
  Proof. rewrite !etd4rk_run. revert k. apply (run_sim N hN same scaled same scaled_N); [intros ?; reflexivity | ..]; sim_rows; ring. Qed.
End Scaling.
