(* Order conditions of exponential Runge-Kutta methods, as identities between the weights of the tableaux of
   ETDRK/Phi.v.  The expressions are written out again here, in phi_1, phi_2, phi_3 as three scalars; they are not taken
   from etd2rk / etd3rk / etd4rk (that the weights of those definitions sum to phi_1 is what etd#rk_forced of
   ETDRK/Forcing.v rests on).  etd#_weights: b_1 + ... + b_s = phi_1 (stiff order 1);  etd#_bc: sum b_i c_i = phi_2
   (stiff order 2) with nodes c = (0,1), (0,1/2,1), (0,1/2,1/2,1);  etd3_row3, etd4_row4: the last internal row sums
   to c_i phi_1(c_i z) with c_i = 1. *)
From Coq Require Import ZArith Field.
From EXV Require Import Base.Scalar Base.FieldLemmas ETDRK.Phi.
Local Open Scope fld_scope.

Section Order.
  Variable F : FieldT.
  Add Field Ff : (fth F).
  Variables z e eh : F.
  Hypothesis z_nz : z <> 0.
  Let p1 := phi1 z e. Let p2 := phi2 z e. Let p3 := phi3 z e.

  Lemma etd2_weights : (p1 - p2) + p2 = p1.
  Proof. ring. Qed.
  Lemma etd3_weights : (p1 - fz 3 * p2 + fz 4 * p3) + (fz 4 * p2 - fz 8 * p3) + (- p2 + fz 4 * p3) = p1.
  Proof. cbn [fz fpos]. ring. Qed.
  Lemma etd4_weights :
    (p1 - fz 3 * p2 + fz 4 * p3) + (fz 2 * p2 - fz 4 * p3) + (fz 2 * p2 - fz 4 * p3) + (- p2 + fz 4 * p3) = p1.
  Proof. cbn [fz fpos]. ring. Qed.

  Lemma etd2_bc : p2 * 1 = p2.
  Proof. ring. Qed.
  Lemma etd3_bc : (fz 4 * p2 - fz 8 * p3) / fz 2 + (- p2 + fz 4 * p3) * 1 = p2.
  Proof. cbn [fz fpos]. field. exact (two_neq0 F). Qed.
  Lemma etd4_bc : (fz 2 * p2 - fz 4 * p3) / fz 2 + (fz 2 * p2 - fz 4 * p3) / fz 2 + (- p2 + fz 4 * p3) * 1 = p2.
  Proof. cbn [fz fpos]. field. exact (two_neq0 F). Qed.

  Lemma etd3_row3 : - p1 + fz 2 * p1 = 1 * p1.
  Proof. cbn [fz fpos]. ring. Qed.
  (* ETD4RK third stage c = Eh*a + (phi1(z/2)/2) (2 N(b) - N(u)), a = Eh*u + (phi1(z/2)/2) N(u):
     coefficients of N(u), N(a), N(b) are  Eh*q - q, 0, 2q  with q = phi1(z/2)/2; they sum to phi_1(z) when e = eh^2 *)
  Lemma etd4_row4 : e = eh * eh ->
    let q := phi1 (half z) eh / fz 2 in (eh * q - q) + 0 + fz 2 * q = 1 * p1.
  Proof.
    intros He. subst p1. unfold phi1, phi0, half. rewrite He. cbn [fz fpos]. field.
    split; [exact z_nz | exact (two_neq0 F)].
  Qed.

  (* phi_1 has no such lemma: it is defined by its closed form *)
  Lemma phi2_closed : p2 = (e - 1 - z) / (z * z).
  Proof. subst p2. unfold phi2, phi1, phi0. field. exact z_nz. Qed.
  Lemma phi3_closed : p3 = (e - 1 - z - z * z / fz 2) / (z * z * z).
  Proof. subst p3. unfold phi3, phi2, phi1, phi0. cbn [fz fpos]. field. split; [exact (two_neq0 F) | exact z_nz]. Qed.
End Order.
