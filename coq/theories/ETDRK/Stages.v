(* Stage programs: what the ETDRK step functions of the code (Gen/ETDRK.v) and the ETD tableaux of the papers
   (ETDRK/Phi.v) have in common.  A row gives a stage state mode by mode: r k x n is its value at mode k, where x is
   the value there of the input state u and n j the value there of N at the j-th stage state (n 0 = N u, n 1 = N at
   the first row's state, ...).  A program is a list of rows, at each of which N is evaluated, and a last row, the
   result.  Every etdrk#_step of orders 2 to 4 (programs gen2 to gen4) and every etd#rk of orders 1 to 4 (programs tab1
   to tab4) IS [run] of a program, by unfolding alone, for any scalars K: what holds at every order is proved once, of
   [run].  The steps of orders 0 and 1 of the code have no stage (E k * u k, and E k * u k + c1 k * N u k): what is
   said of them is read off their text.
   [run_sim] compares two runs row by row (rho relates their stage states, nu the values of N, res the results;
   [run_from_sim] beneath it starts from any two related lists of values of N);
   [run_inv] is one run (P of the stage states, Q of the values of N, R of the result); [run_lin] is for programs
   whose rows are mode-wise linear combinations: a relation that such combinations and N respect passes from the
   inputs to the results. *)
From Coq Require Import ZArith List.
From EXV Require Import Base.Scalar ETDRK.Phi Gen.ETDRK.
Import ListNotations.
Local Open Scope fld_scope.

Section Run.
  Variable K : Ops.
  Variable I : Type.
  Definition row := I -> K -> (nat -> K) -> K.
  Definition prog := (list row * row)%type.
  Definition stage (r : row) (u : I -> K) (env : nat -> I -> K) : I -> K := fun k => r k (u k) (fun j => env j k).
  Definition upd (env : nat -> I -> K) (i : nat) (a : I -> K) : nat -> I -> K := fun j => if Nat.eqb j i then a else env j.
  Definition same (v v' : I -> K) : Prop := forall k, v k = v' k.
  Variable N : (I -> K) -> I -> K.
  (* slots below i hold N at the stages so far; no row reads a slot from i on *)
  Fixpoint run_from (rs : list row) (out : row) (u : I -> K) (env : nat -> I -> K) (i : nat) : I -> K :=
    match rs with
    | [] => stage out u env
    | r :: rs' => run_from rs' out u (upd env i (N (stage r u env))) (S i)
    end.
  Definition run (p : prog) (u : I -> K) : I -> K := run_from (fst p) (snd p) u (fun _ => N u) 1.
End Run.
Arguments stage {K I}. Arguments same {K I}. Arguments upd {K I}. Arguments run_from {K I}. Arguments run {K I}.

Section Programs.
  Variable K : Ops.
  Variable I : Type.
  Variables E Eh c1 c2 c3 c4 c5 c6 : I -> K.
  Notation prog := (prog K I).
  Definition gen2 : prog :=
    ([fun k x n => E k * x + c1 k * n 0%nat],
     fun k x n => E k * x + c1 k * n 0%nat + c2 k * (n 1%nat - n 0%nat)).
  Definition gen3 : prog :=
    ([fun k x n => Eh k * x + c1 k * n 0%nat;
      fun k x n => E k * x + c2 k * (fz 2 * n 1%nat - n 0%nat)],
     fun k x n => E k * x + c3 k * n 0%nat + c4 k * n 1%nat + c5 k * n 2).
  Definition gen4 : prog :=
    ([fun k x n => Eh k * x + c1 k * n 0%nat;
      fun k x n => Eh k * x + c2 k * n 1%nat;
      fun k x n => Eh k * (Eh k * x + c1 k * n 0%nat) + c3 k * (fz 2 * n 2 - n 0%nat)],
     fun k x n => E k * x + c4 k * n 0%nat + c5 k * fz 2 * (n 1%nat + n 2) + c6 k * n 3).

  Variable h : K.
  Variable z : I -> K.
  Let p1 k := phi1 (z k) (E k).
  Let p2 k := phi2 (z k) (E k).
  Let p3 k := phi3 (z k) (E k).
  Let q k := phi1 (half (z k)) (Eh k) / fz 2.
  Definition tab1 : prog := ([], fun k x n => E k * x + h * (p1 k * n 0%nat)).
  Definition tab2 : prog :=
    ([fun k x n => E k * x + h * (p1 k * n 0%nat)],
     fun k x n => E k * x + h * ((p1 k - p2 k) * n 0%nat + p2 k * n 1%nat)).
  Definition tab3 : prog :=
    ([fun k x n => Eh k * x + h * (q k * n 0%nat);
      fun k x n => E k * x + h * (- p1 k * n 0%nat + fz 2 * p1 k * n 1%nat)],
     fun k x n => E k * x + h * ((p1 k - fz 3 * p2 k + fz 4 * p3 k) * n 0%nat + (fz 4 * p2 k - fz 8 * p3 k) * n 1%nat
                                 + (- p2 k + fz 4 * p3 k) * n 2)).
  Definition tab4 : prog :=
    ([fun k x n => Eh k * x + h * (q k * n 0%nat);
      fun k x n => Eh k * x + h * (q k * n 1%nat);
      fun k x n => Eh k * (Eh k * x + h * (q k * n 0%nat)) + h * (q k * (fz 2 * n 2 - n 0%nat))],
     fun k x n => E k * x + h * ((p1 k - fz 3 * p2 k + fz 4 * p3 k) * n 0%nat
                                 + (fz 2 * p2 k - fz 4 * p3 k) * (n 1%nat + n 2) + (- p2 k + fz 4 * p3 k) * n 3)).

  Variable N : (I -> K) -> I -> K.
  Variable u : I -> K.
  Lemma etdrk2_run : etdrk2_step K E c1 c2 N u = run N gen2 u. Proof. reflexivity. Qed.
  Lemma etdrk3_run : etdrk3_step K E Eh c1 c2 c3 c4 c5 N u = run N gen3 u. Proof. reflexivity. Qed.
  Lemma etdrk4_run : etdrk4_step K E Eh c1 c2 c3 c4 c5 c6 N u = run N gen4 u. Proof. reflexivity. Qed.
  Lemma etd1_run : etd1 h z E N u = run N tab1 u. Proof. reflexivity. Qed.
  Lemma etd2rk_run : etd2rk h z E N u = run N tab2 u. Proof. reflexivity. Qed.
  Lemma etd3rk_run : etd3rk h z E Eh N u = run N tab3 u. Proof. reflexivity. Qed.
  Lemma etd4rk_run : etd4rk h z E Eh N u = run N tab4 u. Proof. reflexivity. Qed.
End Programs.

Section Sim.
  Variables K K' : Ops.
  Variable I : Type.
  Variable N : (I -> K) -> I -> K.
  Variable N' : (I -> K') -> I -> K'.
  Variables rho nu res : (I -> K) -> (I -> K') -> Prop.
  Hypothesis HN : forall v v', rho v v' -> nu (N v) (N' v').
  Variable u : I -> K.
  Variable u' : I -> K'.
  Definition row_sim (R : (I -> K) -> (I -> K') -> Prop) (r : row K I) (r' : row K' I) : Prop :=
    forall env env', (forall j, nu (env j) (env' j)) -> R (stage r u env) (stage r' u' env').

  Lemma run_from_sim rs rs' out out' : Forall2 (row_sim rho) rs rs' -> row_sim res out out' ->
    forall env env' i, (forall j, nu (env j) (env' j)) ->
    res (run_from N rs out u env i) (run_from N' rs' out' u' env' i).
  Proof.
    intros H Ho. induction H as [|r r' rs rs' Hr _ IH]; intros env env' i He; cbn [run_from].
    - apply Ho, He.
    - apply IH. intros j. unfold upd. destruct (Nat.eqb j i); [apply HN, Hr, He | apply He].
  Qed.

  Lemma run_sim p p' : rho u u' -> Forall2 (row_sim rho) (fst p) (fst p') -> row_sim res (snd p) (snd p') ->
    res (run N p u) (run N' p' u').
  Proof. intros Hu H Ho. apply run_from_sim; [exact H | exact Ho | intros _; apply HN, Hu]. Qed.
End Sim.
Arguments row_sim {K K' I}. Arguments run_from_sim {K K' I}. Arguments run_sim {K K' I}.

Lemma Forall2_diag {A} (R : A -> A -> Prop) l : Forall (fun a => R a a) l -> Forall2 R l l.
Proof. induction 1; constructor; assumption. Qed.

Section One.
  Variable K : Ops.
  Variable I : Type.
  Variable N : (I -> K) -> I -> K.
  Variable u : I -> K.

  Lemma run_inv (P Q R : (I -> K) -> Prop) p : (forall v, P v -> Q (N v)) -> P u ->
    Forall (fun r : row K I => forall env, (forall j, Q (env j)) -> P (stage r u env)) (fst p) ->
    (forall env, (forall j, Q (env j)) -> R (stage (snd p) u env)) -> R (run N p u).
  Proof.
    intros HN Hu H Ho.
    apply (run_sim N N (fun v _ => P v) (fun a _ => Q a) (fun v _ => R v) (fun v _ => HN v) u u p p Hu).
    - apply Forall2_diag. revert H. apply Forall_impl. intros r Hr env _. apply Hr.
    - intros env _. apply Ho.
  Qed.

  (* two programs on the same state with the same N: it is enough that their rows agree *)
  Lemma run_same (HN : forall v v', same v v' -> same (N v) (N v')) p p' :
    Forall2 (row_sim same u u same) (fst p) (fst p') -> row_sim same u u same (snd p) (snd p') -> same (run N p u) (run N p' u).
  Proof. apply (run_sim N N same same same HN). intros k. reflexivity. Qed.

  (* rows that are mode-wise linear combinations, with coefficient arrays from a class C *)
  Variable C : (I -> K) -> Prop.
  Inductive lin : row K I -> Prop :=
  | lin_x : lin (fun _ x _ => x)
  | lin_n j : lin (fun _ _ n => n j)
  | lin_mul a r : C a -> lin r -> lin (fun k x n => a k * r k x n)
  | lin_add r s : lin r -> lin s -> lin (fun k x n => r k x n + s k x n)
  | lin_sub r s : lin r -> lin s -> lin (fun k x n => r k x n - s k x n).
  Definition lin_prog (p : prog K I) : Prop := Forall lin (fst p) /\ lin (snd p).

  Variable R : (I -> K) -> (I -> K) -> Prop.
  Hypothesis R_mul : forall a v v', C a -> R v v' -> R (fun k => a k * v k) (fun k => a k * v' k).
  Hypothesis R_add : forall v v' w w', R v v' -> R w w' -> R (fun k => v k + w k) (fun k => v' k + w' k).
  Hypothesis R_sub : forall v v' w w', R v v' -> R w w' -> R (fun k => v k - w k) (fun k => v' k - w' k).
  Variable N' : (I -> K) -> I -> K.
  Hypothesis R_N : forall v v', R v v' -> R (N v) (N' v').
  Variable u' : I -> K.
  Hypothesis Hu : R u u'.

  Lemma lin_row r : lin r -> row_sim R u u' R r r.
  Proof.
    intros H env env' He. induction H as [|j|a r Ha _ IH|r s _ IHr _ IHs|r s _ IHr _ IHs];
      [exact Hu | apply He | apply (R_mul a _ _ Ha IH) | apply (R_add _ _ _ _ IHr IHs) | apply (R_sub _ _ _ _ IHr IHs)].
  Qed.

  Lemma run_lin p : lin_prog p -> R (run N p u) (run N' p u').
  Proof.
    intros [H Ho]. apply (run_sim N N' R R R R_N u u' p p Hu); [|apply lin_row, Ho].
    apply Forall2_diag. revert H. apply Forall_impl, lin_row.
  Qed.
End One.
Arguments run_inv {K I}. Arguments run_same {K I}. Arguments run_lin {K I}.

(* The goals about rows that [run_sim] and [run_from_sim] leave are a Forall2 over the two lists of stage rows and, for
   the last rows, one goal of the form that the Forall2 holds for each pair r, r':
     forall env env', (forall j, nu (env j) (env' j)) -> R (stage r u env) (stage r' u' env').
   [sim_rows] serves both, when nu and R are defined relations that speak mode by mode: a Forall2 is taken apart into
   one such goal per pair (a goal that already is one is left as it is); then the environments, the hypothesis He on
   the values of N and the mode j are named, nu is unfolded in He, the stages and the programs of this file are
   unfolded, and the values of N are replaced as He says.  Left to the caller is one identity between the two row
   expressions at mode j per row.  [inv_rows] is the same for the goals of [run_inv], which have one environment:
     forall env, (forall j, Q (env j)) -> R (stage r u env). *)
Ltac sim_rows := repeat first [apply Forall2_cons | apply Forall2_nil]; intros env env' He j; red in He;
  cbv beta iota zeta delta [stage fst snd gen2 gen3 gen4 tab1 tab2 tab3 tab4]; rewrite ?He.
Ltac inv_rows := repeat first [apply Forall_cons | apply Forall_nil]; intros env He j; red in He;
  cbv beta iota zeta delta [stage fst snd gen2 gen3 gen4 tab1 tab2 tab3 tab4]; rewrite ?He.

(* the class must also hold the 2 and the 2 c5 that rows of orders 3 and 4 multiply by *)
Section GenLin.
  Variable K : Ops.
  Variable I : Type.
  Variable C : (I -> K) -> Prop.
  Variables E Eh c1 c2 c3 c4 c5 c6 : I -> K.
  Lemma gen2_lin : C E -> C c1 -> C c2 -> lin_prog K I C (gen2 K I E c1 c2).
  Proof. repeat constructor; assumption. Qed.
  Lemma gen3_lin : C E -> C Eh -> C c1 -> C c2 -> C c3 -> C c4 -> C c5 -> C (fun _ => fz 2) ->
    lin_prog K I C (gen3 K I E Eh c1 c2 c3 c4 c5).
  Proof. repeat constructor; assumption. Qed.
  Lemma gen4_lin : C E -> C Eh -> C c1 -> C c2 -> C c3 -> C c4 -> C c6 -> C (fun _ => fz 2) -> C (fun k => c5 k * fz 2) ->
    lin_prog K I C (gen4 K I E Eh c1 c2 c3 c4 c5 c6).
  Proof. repeat constructor; assumption. Qed.
End GenLin.
