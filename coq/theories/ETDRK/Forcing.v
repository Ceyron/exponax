(* C12: response of the ETD tableaux to a forcing.  On the laminar subspace (mode-wise multiples of the forcing f)
   the convection term vanishes, so the nonlinear term returns f for every stage state; every tableau then reduces to
   u' = E u + h phi1(z) f (weights telescope), and n steps from rest give the exact laminar solution f (e^{n z} - 1)/lambda. *)
From Coq Require Import Field Ring.
From EXV Require Import Base.Scalar Base.FieldLemmas ETDRK.Phi ETDRK.Stages.
Local Open Scope fld_scope.

Section Forcing.
  Variable F : FieldT.
  Add Ring Fr : (fring F).
  Variable I : Type.
  Variable h : F.
  Variables z E Eh : I -> F.
  Variable f : I -> F.
  Variable N : (I -> F) -> (I -> F).
  Definition Sub (v : I -> F) : Prop := exists c : I -> F, forall k, v k = c k * f k.
  Hypothesis N_on_sub : forall v, Sub v -> forall k, N v k = f k.
  Variable u : I -> F.
  Hypothesis u_sub : Sub u.

  Definition forced (v : I -> F) : Prop := forall k, v k = E k * u k + h * phi1 (z k) (E k) * f k.
  Definition is_f (a : I -> F) : Prop := forall k, a k = f k.
  (* while N has returned f, a row that is homogeneous of degree one keeps the stage state in the subspace: its
     coefficient is the row over the coefficient of u and 1 for f *)
  Lemma Sub_row (r : row F I) :
    (forall k c n, (forall j, n j = f k) -> r k (c * f k) n = r k c (fun _ => 1) * f k) ->
    forall env, (forall j, is_f (env j)) -> Sub (stage r u env).
  Proof.
    intros Hr env He. destruct u_sub as [cu Hcu]. exists (fun k => r k (cu k) (fun _ => 1)).
    intros k. unfold stage. rewrite Hcu. apply Hr. intros j. apply He.
  Qed.
  (* so N returns f at every stage, and the weights of the last row sum to phi_1 *)
  Ltac rows := [> exact N_on_sub | exact u_sub
    | repeat (constructor; [apply Sub_row; intros k c n Hn; rewrite ?Hn; ring|]); constructor
    | inv_rows; cbn [fz fpos]; ring].

  Theorem etd1_forced k : etd1 h z E N u k = E k * u k + h * phi1 (z k) (E k) * f k.
  Proof. rewrite etd1_run. revert k. apply (run_inv N u Sub is_f forced); rows. Qed.
  Theorem etd2rk_forced k : etd2rk h z E N u k = E k * u k + h * phi1 (z k) (E k) * f k.
  Proof. rewrite etd2rk_run. revert k. apply (run_inv N u Sub is_f forced); rows. Qed.
  Theorem etd3rk_forced k : etd3rk h z E Eh N u k = E k * u k + h * phi1 (z k) (E k) * f k.
  Proof. rewrite etd3rk_run. revert k. apply (run_inv N u Sub is_f forced); rows. Qed.
  Theorem etd4rk_forced k : etd4rk h z E Eh N u k = E k * u k + h * phi1 (z k) (E k) * f k.
  Proof. rewrite etd4rk_run. revert k. apply (run_inv N u Sub is_f forced); rows. Qed.
End Forcing.

Section Laminar.
  Variable F : FieldT.
  Add Field Ff2 : (fth F).
  Variables lam h E f : F.
  Hypothesis lam_nz : lam <> 0.
  Hypothesis h_nz : h <> 0.
  (* one mode of u' = E u + h phi1(z) f, the right-hand side of etd#rk_forced, iterated n times from rest *)
  Fixpoint lam_iter (n : nat) : F := match n with O => 0 | S m => E * lam_iter m + h * phi1 (h * lam) E * f end.

  (* with E = exp(h lambda) this is the exact solution of u' = lambda u + f, u(0) = 0, at t = n h *)
  Theorem laminar_solution n : lam_iter n = f * (fpow E n - 1) / lam.
  Proof.
    induction n as [|n IH]; cbn [lam_iter fpow].
    - field. exact lam_nz.
    - rewrite IH. unfold phi1, phi0. field. split; assumption.
  Qed.
End Laminar.

(* exponax ForcedStepper.step(u, f): the inner step of u + dt f *)
Section ForcedStepper.
  Variable F : FieldT.
  Add Ring Fr3 : (fring F).
  Variable I : Type.
  Variable dt : F.
  Variable step : (I -> F) -> (I -> F).
  Hypothesis step_ext : forall u v, (forall k, u k = v k) -> forall k, step u k = step v k.
  Definition forced_step (u f : I -> F) : I -> F := step (fun k => u k + dt * f k).
  Theorem forced_zero u k : forced_step u (fun _ => 0) k = step u k.
  Proof. unfold forced_step. apply step_ext. intros j. ring. Qed.
  Theorem forced_spec u f k : forced_step u f k = step (fun j => u j + dt * f j) k.
  Proof. reflexivity. Qed.
End ForcedStepper.
