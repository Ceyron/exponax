(* C19 lemmas: the closed forms of the coefficient integrands divide only by powers of lr; the zero state; lambda = 0;
   the contour points are roots of -1; lr <> 0 on the real and imaginary axes. *)
From Coq Require Import ZArith Field List Lia.
From EXV Require Import Base.Scalar Base.FieldLemmas Base.Cplx DFT.DFT1 ETDRK.Phi ETDRK.Contour Gen.ETDRK ETDRK.Stages
  ETDRK.Forcing Tie.ETDRKTie Steppers.LinearProofs.
Import ListNotations.
Local Open Scope fld_scope.

Section OverAField.
  Variable F : FieldT.
  Add Field Ff : (fth F).

  (* every integrand = numerator * (1/lr)^m: the only inverse ever taken is that of lr.  Six integrands have a text
     of their own; the others are these (see Tie/ETDRKTie.v), 3_1 being 1_1 with eh in the place of e *)
  Ltac cf := intros; unfold inv_pow, num_e1, num_e2, num_a3, num_b3, num_c3; cbn [fz fpos fpow]; field; assumption.
  Lemma cf_e1 lr e eh : lr <> 0 -> etdrk1_integrand_1 F lr e eh = num_e1 F lr e * inv_pow F lr 1.
  Proof. unfold etdrk1_integrand_1. cf. Qed.
  Lemma cf_e2 lr e eh : lr <> 0 -> etdrk2_integrand_2 F lr e eh = num_e2 F lr e * inv_pow F lr 2.
  Proof. unfold etdrk2_integrand_2. cf. Qed.
  Lemma cf_a3 lr e eh : lr <> 0 -> etdrk3_integrand_3 F lr e eh = num_a3 F lr e * inv_pow F lr 3.
  Proof. unfold etdrk3_integrand_3. cf. Qed.
  Lemma cf_4b3 lr e eh : lr <> 0 -> etdrk3_integrand_4 F lr e eh = fz 4 * num_b3 F lr e * inv_pow F lr 3.
  Proof. unfold etdrk3_integrand_4. cf. Qed.
  Lemma cf_b3 lr e eh : lr <> 0 -> etdrk4_integrand_5 F lr e eh = num_b3 F lr e * inv_pow F lr 3.
  Proof. unfold etdrk4_integrand_5. cf. Qed.
  Lemma cf_c3 lr e eh : lr <> 0 -> etdrk3_integrand_5 F lr e eh = num_c3 F lr e * inv_pow F lr 3.
  Proof. unfold etdrk3_integrand_5. cf. Qed.

  Notation O := (OptOps F).

  Lemma opt_fpos p : @fpos O p = Some (@fpos F p).
  Proof. induction p as [p IH|p IH|]; cbn [fpos]; try rewrite IH; reflexivity. Qed.
  Lemma opt_fz a : @fz O a = Some (@fz F a).
  Proof. destruct a; cbn [fz]; try rewrite opt_fpos; reflexivity. Qed.
  Lemma opt_fpow (x : F) n : @fpow O (Some x) n = Some (fpow x n).
  Proof. induction n as [|n IH]; cbn [fpow]; try rewrite IH; reflexivity. Qed.

  Lemma opt_quot (a lr : F) m : (0 < m)%nat ->
    @odiv O (Some a) (@fpow O (Some lr) m) = if oeqb lr 0 then None else Some (a / fpow lr m).
  Proof. intros Hm. rewrite opt_fpow. cbn [OptOps odiv odiv_opt]. rewrite (feqb_pow0 F lr m Hm). reflexivity. Qed.

  (* every integrand is a quotient by lr (both sides then compute to the same) or by a power of lr (opt_quot) *)
  Lemma integrands_eval lr e eh :
    map (fun g => g (Some lr) (Some e) (Some eh)) (all_integrands O)
    = map (fun g => if oeqb lr 0 then None else Some (g lr e eh)) (all_integrands F).
  Proof.
    cbv [all_integrands map].
    repeat (apply f_equal2; [first [reflexivity | apply opt_quot; lia] |]).
    reflexivity.
  Qed.

  (* a contour point can vanish only if z^M = (-r)^M * w^M; with w^M = -1 and M even: z^M = - r^M *)
  Lemma lr_zero_even (z r w : F) n : fpow w (2 * n) = - (1) -> z + r * w = 0 -> fpow z (2 * n) = - fpow r (2 * n).
  Proof.
    intros Hw H. transitivity (fpow (- r) (2 * n) * fpow w (2 * n)); [|rewrite Hw, fpow_opp_even; ring].
    rewrite <- fpow_mul_base. f_equal. transitivity (z + r * w - r * w); [ring | rewrite H; ring].
  Qed.

  Section ZeroState.
    Variable I : Type.
    Variables E Eh c1 c2 c3 c4 c5 c6 : I -> F.
    Variable N : (I -> F) -> (I -> F).
    Hypothesis N_ext : forall u v, (forall k, u k = v k) -> forall k, N u k = N v k.
    Variable f : I -> F.
    Hypothesis N0 : forall k, N (zero_st F) k = f k.       (* the forcing: what N makes of the zero state *)

    Lemma from_zero p rs' out' : Forall2 (row_sim same (zero_st F) (zero_st F) same) (fst p) rs' ->
      row_sim same (zero_st F) (zero_st F) same (snd p) out' ->
      forall k, run N p (zero_st F) k = run_from N rs' out' (zero_st F) (fun _ => f) 1 k.
    Proof.
      intros H Ho.
      exact (run_from_sim N N same same same N_ext _ _ (fst p) rs' (snd p) out' H Ho (fun _ => N (zero_st F)) (fun _ => f) 1 (fun _ => N0)).
    Qed.

    (* forced_p (ETDRK/Contour.v) is the program of the code without its terms in the state, run with f for N 0 *)
    Lemma step1_forced k : etdrk1_step F E c1 N (zero_st F) k = forced1 F c1 f k.
    Proof. unfold etdrk1_step, forced1. rewrite N0. unfold zero_st. ring. Qed.

    Lemma step2_forced k : etdrk2_step F E c1 c2 N (zero_st F) k = forced2 F c1 c2 f N k.
    Proof.
      rewrite etdrk2_run.
      apply (from_zero _ [fun k x n => c1 k * n 0%nat] (fun k x n => c1 k * n 0%nat + c2 k * (n 1%nat - n 0%nat)));
        sim_rows; unfold zero_st; ring.
    Qed.

    Lemma step3_forced k : etdrk3_step F E Eh c1 c2 c3 c4 c5 N (zero_st F) k = forced3 F c1 c2 c3 c4 c5 f N k.
    Proof.
      rewrite etdrk3_run.
      apply (from_zero _ [fun k x n => c1 k * n 0%nat; fun k x n => c2 k * (fz 2 * n 1%nat - n 0%nat)]
               (fun k x n => c3 k * n 0%nat + c4 k * n 1%nat + c5 k * n 2%nat)); sim_rows; unfold zero_st; ring.
    Qed.

    Lemma step4_forced k :
      etdrk4_step F E Eh c1 c2 c3 c4 c5 c6 N (zero_st F) k = forced4 F Eh c1 c2 c3 c4 c5 c6 f N k.
    Proof.
      rewrite etdrk4_run.
      apply (from_zero _ [fun k x n => c1 k * n 0%nat; fun k x n => c2 k * n 1%nat;
                          fun k x n => Eh k * (c1 k * n 0%nat) + c3 k * (fz 2 * n 2%nat - n 0%nat)]
               (fun k x n => c4 k * n 0%nat + c5 k * fz 2 * (n 1%nat + n 2%nat) + c6 k * n 3%nat));
        sim_rows; unfold zero_st; ring.
    Qed.
  End ZeroState.

  (* unforced: N 0 = 0  ==>  step 0 = 0, whatever the coefficient arrays are: the zero states are closed under
     what a stage program does *)
  Section Unforced.
    Variable I : Type.
    Variables E Eh c1 c2 c3 c4 c5 c6 : I -> F.
    Lemma step0_zero k : etdrk0_step F E (zero_st F) k = 0.
    Proof. unfold etdrk0_step, zero_st. ring. Qed.

    Variable N : (I -> F) -> (I -> F).
    Hypothesis N_ext : forall u v, (forall k, u k = v k) -> forall k, N u k = N v k.
    Hypothesis N0 : forall k, N (zero_st F) k = 0.

    Lemma run_zero p : lin_prog F I (fun _ => True) p -> forall k, run N p (zero_st F) k = 0.
    Proof.
      refine (run_lin N (zero_st F) (fun _ => True) (fun v _ => forall k, v k = 0) _ _ _ N _ (zero_st F) _ p).
      - intros a v _ _ H k. rewrite H. ring.
      - intros v _ w _ Hv Hw k. rewrite Hv, Hw. ring.
      - intros v _ w _ Hv Hw k. rewrite Hv, Hw. ring.
      - intros v _ H k. rewrite (N_ext v (zero_st F) H). apply N0.
      - reflexivity.
    Qed.

    Lemma step1_zero k : etdrk1_step F E c1 N (zero_st F) k = 0.
    Proof. unfold etdrk1_step. rewrite N0. unfold zero_st. ring. Qed.
    Lemma step2_zero k : etdrk2_step F E c1 c2 N (zero_st F) k = 0.
    Proof. rewrite etdrk2_run. apply run_zero, gen2_lin; exact Logic.I. Qed.
    Lemma step3_zero k : etdrk3_step F E Eh c1 c2 c3 c4 c5 N (zero_st F) k = 0.
    Proof. rewrite etdrk3_run. apply run_zero, gen3_lin; exact Logic.I. Qed.
    Lemma step4_zero k : etdrk4_step F E Eh c1 c2 c3 c4 c5 c6 N (zero_st F) k = 0.
    Proof. rewrite etdrk4_run. apply run_zero, gen4_lin; exact Logic.I. Qed.
  End Unforced.

  (* with the closed-form coefficients h * integrand(z, e, eh), z <> 0, a state-independent forcing f gives
     h * phi_1(z) * f at every order: the exact solution of u' = lambda u + f from u = 0 (when e = exp z).
     The steps are the tableaux (Tie/ETDRKTie.v) and the zero state lies in the laminar subspace (ETDRK/Forcing.v) *)
  Section ForcedExact.
    Variable I : Type.
    Variable h : F.
    Variables z E Eh f : I -> F.
    Hypothesis z_nz : forall k, z k <> 0.
    Let coef (g : F -> F -> F -> F) : I -> F := fun k => h * g (z k) (E k) (Eh k).

    Lemma forced_exact k :
      etdrk1_step F E (coef (etdrk1_integrand_1 F)) (const_nl F f) (zero_st F) k = h * phi1 (z k) (E k) * f k
      /\ etdrk2_step F E (coef (etdrk2_integrand_1 F)) (coef (etdrk2_integrand_2 F)) (const_nl F f) (zero_st F) k
         = h * phi1 (z k) (E k) * f k
      /\ etdrk3_step F E Eh (coef (etdrk3_integrand_1 F)) (coef (etdrk3_integrand_2 F)) (coef (etdrk3_integrand_3 F))
           (coef (etdrk3_integrand_4 F)) (coef (etdrk3_integrand_5 F)) (const_nl F f) (zero_st F) k
         = h * phi1 (z k) (E k) * f k
      /\ etdrk4_step F E Eh (coef (etdrk4_integrand_1 F)) (coef (etdrk4_integrand_2 F)) (coef (etdrk4_integrand_3 F))
           (coef (etdrk4_integrand_4 F)) (coef (etdrk4_integrand_5 F)) (coef (etdrk4_integrand_6 F)) (const_nl F f) (zero_st F) k
         = h * phi1 (z k) (E k) * f k.
    Proof.
      assert (Hc : forall u v : I -> F, (forall j, u j = v j) -> forall j, const_nl F f u j = const_nl F f v j) by reflexivity.
      assert (Hf : forall v, Sub F I f v -> forall j, const_nl F f v j = f j) by reflexivity.
      assert (H0 : Sub F I f (zero_st F)) by (exists (fun _ => 0); intros j; unfold zero_st; ring).
      rewrite (step1_tableau F I h z E Eh _), (step2_tableau F I h z E Eh _ Hc z_nz),
        (step3_tableau F I h z E Eh _ Hc z_nz), (step4_tableau F I h z E Eh _ Hc z_nz).
      rewrite (etd1_forced F I h z E f _ Hf _ H0), (etd2rk_forced F I h z E f _ Hf _ H0),
        (etd3rk_forced F I h z E Eh f _ Hf _ H0), (etd4rk_forced F I h z E Eh f _ Hf _ H0).
      unfold zero_st. repeat split; ring.
    Qed.
  End ForcedExact.

  (* in the context for the [assumption] of nz1: with fz 6 written out in ones, field asks for 3 <> 0 in the rows of RKlimit *)
  Let three_nz : (1 + (1 + 1) : F) <> 0.
  Proof. intro H. apply (fz_neq0 F 3); [discriminate|]. cbn [fz fpos]. rewrite <- H. ring. Qed.
  Ltac nz1 := first [assumption | exact (fz2_neq0 F) | exact (two_neq0 F)].
  Ltac nz := repeat split; repeat first [nz1 | apply (fmul_neq0 F)].

  (* limit-free characterisation of the phi functions: z phi_{k+1} = phi_k - 1/k!  (for z <> 0 it determines them) *)
  Lemma phi_recurrence (z e : F) : z <> 0 ->
    z * phi1 z e = e - 1 /\ z * phi2 z e = phi1 z e - 1 /\ z * phi3 z e = phi2 z e - 1 / fz 2.
  Proof. intros Hz. unfold phi3, phi2, phi1, phi0. cbn [fz fpos]. repeat split; field; nz. Qed.

  Lemma phi_recurrence_unique (z e q1 q2 q3 : F) : z <> 0 ->
    z * q1 = e - 1 -> z * q2 = q1 - 1 -> z * q3 = q2 - 1 / fz 2 ->
    q1 = phi1 z e /\ q2 = phi2 z e /\ q3 = phi3 z e.
  Proof.
    intros Hz H1 H2 H3. destruct (phi_recurrence z e Hz) as (P1 & P2 & P3).
    assert (E1 : q1 = phi1 z e) by (apply (fmul_cancel_l F z _ _ Hz); rewrite H1, P1; reflexivity).
    assert (E2 : q2 = phi2 z e) by (apply (fmul_cancel_l F z _ _ Hz); rewrite H2, P2, E1; reflexivity).
    repeat split; [exact E1 | exact E2 | apply (fmul_cancel_l F z _ _ Hz); rewrite H3, P3, E2; reflexivity].
  Qed.

  (* at z = 0, e = 1 the recurrences are satisfied by the values 1/k! (there they do not determine them: that the
     coefficient functions extend continuously with these values is analysis, see Props/C19.v) *)
  Lemma phi1_at_zero : (0 : F) * phi1_0 F = 1 - 1.
  Proof. ring. Qed.
  Lemma phi2_at_zero : (0 : F) * phi2_0 F = phi1_0 F - 1.
  Proof. unfold phi1_0. ring. Qed.
  Lemma phi3_at_zero : (0 : F) * phi3_0 F = phi2_0 F - 1 / fz 2.
  Proof. unfold phi2_0. ring. Qed.

  (* with E = Eh = 1 and the tableau weights evaluated at phi_k = 1/k!, the stage programs of the code are the
     classical Runge-Kutta methods of the same order, which are stage programs too *)
  Section RKlimit.
    Variable I : Type.
    Variable h : F.
    Variable N : (I -> F) -> (I -> F).
    Hypothesis N_ext : forall u v, (forall k, u k = v k) -> forall k, N u k = N v k.
    Let one : I -> F := fun _ => 1.
    Let cst (x : F) : I -> F := fun _ => h * x.
    Let p1 := phi1_0 F. Let p2 := phi2_0 F. Let p3 := phi3_0 F.
    (* the constants of this section written out in 1 and h *)
    Ltac consts := unfold cst, one, p1, p2, p3, phi1_0, phi2_0, phi3_0; cbn [fz fpos].

    Lemma step0_one (u : I -> F) k : etdrk0_step F one u k = u k.
    Proof. unfold etdrk0_step. consts. ring. Qed.

    Lemma step1_rk u k : etdrk1_step F one (cst p1) N u k = rk1 F h N u k.
    Proof. unfold etdrk1_step, rk1. consts. ring. Qed.

    Lemma step2_rk u k : etdrk2_step F one (cst p1) (cst p2) N u k = rk2 F h N u k.
    Proof.
      rewrite etdrk2_run.
      apply (run_same N u N_ext _ ([fun k x n => x + h * n 0%nat], fun k x n => x + h / fz 2 * (n 0%nat + n 1%nat)));
        sim_rows; consts; field; nz.
    Qed.

    Lemma step3_rk u k :
      etdrk3_step F one one (cst (p1 / fz 2)) (cst p1) (cst (p1 - fz 3 * p2 + fz 4 * p3)) (cst (fz 4 * p2 - fz 8 * p3))
        (cst (- p2 + fz 4 * p3)) N u k = rk3 F h N u k.
    Proof.
      rewrite etdrk3_run.
      apply (run_same N u N_ext _
               ([fun k x n => x + h / fz 2 * n 0%nat; fun k x n => x + h * (fz 2 * n 1%nat - n 0%nat)],
                fun k x n => x + h / fz 6 * (n 0%nat + fz 4 * n 1%nat + n 2%nat)));
        sim_rows; consts; field; nz.
    Qed.

    Lemma step4_rk u k :
      etdrk4_step F one one (cst (p1 / fz 2)) (cst (p1 / fz 2)) (cst (p1 / fz 2)) (cst (p1 - fz 3 * p2 + fz 4 * p3))
        (cst ((fz 2 * p2 - fz 4 * p3) / fz 2)) (cst (- p2 + fz 4 * p3)) N u k = rk4 F h N u k.
    Proof.
      rewrite etdrk4_run.
      apply (run_same N u N_ext _
               ([fun k x n => x + h / fz 2 * n 0%nat; fun k x n => x + h / fz 2 * n 1%nat; fun k x n => x + h * n 2%nat],
                fun k x n => x + h / fz 6 * (n 0%nat + fz 2 * n 1%nat + fz 2 * n 2%nat + n 3%nat)));
        sim_rows; consts; field; nz.
    Qed.
  End RKlimit.

  (* the M-point contour mean of x^m is (r s)^m when M divides m and 0 otherwise; so it reproduces the value at the
     centre of every polynomial of degree < M exactly (only the Taylor coefficients of order M, 2M, ... of the
     integrands contribute to the quadrature error at lambda = 0) *)
  Section Mean.
    Variable M : nat.
    Variables r s w : F.
    Hypothesis M_pos : (0 < M)%nat.
    Hypothesis w_M : fpow w M = 1.
    Hypothesis w_prim : forall m, (0 < m < M)%nat -> fpow w m <> 1.

    Lemma mean_power m :
      contour_mean F M r s w (fun x => fpow x m) = if (m mod M =? 0)%nat then fpow (r * s) m else 0.
    Proof.
      unfold contour_mean, contour_pt.
      rewrite (bsum_ext F M _ (fun j => fpow (r * s) m * fpow w (j * m))).
      2:{ intros j _. rewrite (fpow_mul F w j m). rewrite <- fpow_mul_base. f_equal. ring. }
      rewrite bsum_scal, (orthogonality F M w M_pos w_M w_prim m).
      pose proof (n_nz F M M_pos) as HM.
      destruct (m mod M =? 0)%nat; field; exact HM.
    Qed.

    Lemma mean_poly n (a : nat -> F) : (0 < n <= M)%nat -> contour_mean F M r s w (poly F n a) = a 0%nat.
    Proof.
      intros [Hpos Hn]. unfold contour_mean, poly.
      pose proof (n_nz F M M_pos) as HM.
      rewrite bsum_swap.
      rewrite (bsum_ext F n _ (fun m => a m * (contour_mean F M r s w (fun x => fpow x m) * fz (Z.of_nat M)))).
      2:{ intros m Hm. rewrite bsum_scal. unfold contour_mean. f_equal. field. exact HM. }
      rewrite (bsum_single F n 0%nat).
      - rewrite mean_power, Nat.mod_0_l by lia. cbn [Nat.eqb fpow]. field. exact HM.
      - exact Hpos.
      - intros m Hm Hne. rewrite mean_power, Nat.mod_small by lia.
        destruct (Nat.eqb_spec m 0); [contradiction | ring].
    Qed.
  End Mean.

  (* the generated contour points exp(root_arg i pi j M) are M-th roots of -1, for any exponential with exp(i pi) = -1:
     M root_arg is an odd multiple of i pi (ETDRKTie.root_arg_odd) *)
  Section HalfShift.
    Variable cexp : F -> F.
    Hypothesis cexp_add : forall a b, cexp (a + b) = cexp a * cexp b.
    Hypothesis cexp_0 : cexp 0 = 1.
    Variables ii pi : F.
    Hypothesis euler : cexp (ii * pi) = - (1).

    Lemma roots_half_shifted (j M : nat) : (0 < M)%nat -> (1 <= j)%nat ->
      fpow (cexp (root_arg F ii pi (fz (Z.of_nat j)) (fz (Z.of_nat M)))) M = - (1).
    Proof.
      intros HM Hj. assert (HMnz : @fz F (Z.of_nat M) <> 0) by (apply fz_neq0; lia).
      rewrite <- (cexp_nmul F cexp cexp_add cexp_0), (root_arg_odd F ii pi _ _ HMnz).
      replace (fz 2 * fz (Z.of_nat j) - 1) with (@fz F (Z.of_nat (2 * (j - 1) + 1))).
      - rewrite (cexp_nmul F cexp cexp_add cexp_0), euler. apply fpow_neg1_odd.
      - replace (Z.of_nat (2 * (j - 1) + 1)) with (2 * Z.of_nat j - 1)%Z by lia. rewrite fz_sub, fz_mul. reflexivity.
    Qed.
  End HalfShift.
End OverAField.

(* contour denominators z + r w for z on the real or the imaginary axis: the imaginary (real) part of z + r w = 0 makes
   w real (imaginary), and no such w is a root of -1 of even order (of order 4n) over a formally real field *)
Section Denominators.
  Variable F : FieldT.
  Hypothesis FR : FormallyReal F.
  Add Ring Fg : (fring F).
  Notation C := (CField FR).

  Lemma neg1_not_square (x : F) : x * x <> - (1).
  Proof.
    intros H. destruct (FR x 1) as [_ H1]; [rewrite H; ring | exact (f_1_neq_0 F H1)].
  Qed.

  Lemma cx_real_eta (w : cx F) : im w = 0 -> w = cofr (re w).
  Proof. intros H. apply cx_ext; cbn; [reflexivity | exact H]. Qed.

  Lemma real_even_pow_not_neg1 (x : F) n : fpow (cofr x : C) (2 * n) <> - (1).
  Proof.
    intros H. rewrite (cpow_real F) in H.
    apply (f_equal re) in H. cbn [re cofr fops CField COps oopp o1 copp c1] in H. rewrite (even_pow_square F) in H.
    exact (neg1_not_square _ H).
  Qed.

  Lemma real_not_root_of_neg1 (w : C) n : im (w : cx F) = 0 -> fpow w (2 * n) <> - (1).
  Proof. intros Hw. rewrite (cx_real_eta w Hw). apply real_even_pow_not_neg1. Qed.

  Lemma imag_not_root_of_neg1 (w : C) n : re (w : cx F) = 0 -> fpow w (4 * n) <> - (1).
  Proof.
    intros Hw.
    assert (Hsq : fpow w 2 = (cofr (- (im (w : cx F) * im (w : cx F))) : C)).
    { apply cx_ext; cbn; rewrite Hw; ring. }
    replace (4 * n)%nat with (2 * (2 * n))%nat by lia.
    rewrite (fpow_mul C w 2 (2 * n)), Hsq. apply real_even_pow_not_neg1.
  Qed.

  Lemma real_factor (r : C) (x : F) : im (r : cx F) = 0 -> r <> 0 -> re (r : cx F) * x = 0 -> x = 0.
  Proof.
    intros Hi Hr H. destruct (fmul_eq0 F _ _ H) as [E|E]; [|exact E].
    exfalso. apply Hr. apply cx_ext; cbn; assumption.
  Qed.

  Lemma contour_den_nonzero_real (z r w : C) n :
    im (z : cx F) = 0 -> im (r : cx F) = 0 -> r <> 0 -> fpow w (2 * n) = - (1) -> z + r * w <> 0.
  Proof.
    intros Hz Hr Hr0 Hw H.
    apply (real_not_root_of_neg1 w n); [|exact Hw]. apply (real_factor r _ Hr Hr0).
    apply (f_equal im) in H. cbn in H. rewrite Hz, Hr in H. rewrite <- H. ring.
  Qed.

  Lemma contour_den_nonzero_imag (z r w : C) n :
    re (z : cx F) = 0 -> im (r : cx F) = 0 -> r <> 0 -> fpow w (4 * n) = - (1) -> z + r * w <> 0.
  Proof.
    intros Hz Hr Hr0 Hw H.
    apply (imag_not_root_of_neg1 w n); [|exact Hw]. apply (real_factor r _ Hr Hr0).
    apply (f_equal re) in H. cbn in H. rewrite Hz, Hr in H. rewrite <- H. ring.
  Qed.

  (* squared distance of the contour point z + r w of a real centre z from the pole lr = 0 of the integrands *)
  Lemma contour_den_norm_real (z r w : C) : im (z : cx F) = 0 -> im (r : cx F) = 0 ->
    cnorm2 ((z + r * w : C) : cx F)
    = (re (z : cx F) + re (r : cx F) * re (w : cx F)) * (re (z : cx F) + re (r : cx F) * re (w : cx F))
      + (re (r : cx F) * im (w : cx F)) * (re (r : cx F) * im (w : cx F)).
  Proof. intros Hz Hr. unfold cnorm2. cbn. rewrite Hz, Hr. ring. Qed.

  (* the contour point lr of the code (the lr and Ldt of the four orders have the same text) for real dt and radius
     and lambda on the real axis (M even) or on the imaginary axis (4 | M) *)
  Lemma lr_nonzero_on_axes (dt lam r w : C) n : im (dt : cx F) = 0 -> im (r : cx F) = 0 -> r <> 0 ->
    (im (lam : cx F) = 0 /\ fpow w (2 * n) = - (1)) \/ (re (lam : cx F) = 0 /\ fpow w (4 * n) = - (1)) ->
    etdrk1_lr C r w (etdrk1_Ldt C dt lam) <> 0.
  Proof.
    intros Hdt Hr Hr0 H. rewrite (contour_point C dt lam r w). destruct H as [[H1 H2]|[H1 H2]].
    - apply (contour_den_nonzero_real (dt * lam) r w n); [cbn; rewrite Hdt, H1; ring | assumption..].
    - apply (contour_den_nonzero_imag (dt * lam) r w n); [cbn; rewrite Hdt, H1; ring | assumption..].
  Qed.
End Denominators.
