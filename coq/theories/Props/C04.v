(* C04 — grid, FFT and Fourier-coefficient conventions are mutually consistent.
   Integer layout: Layout/Freq.v (hand-written from _spectral.py/_utils.py; exhaustive exact correspondence on every run).
   Transform: DFT/DFT1.v over ANY field with a primitive n-th root of unity w (w' = 1/w); jnp.fft is this transform with
   w = exp(-2 pi i/n) (contract, exercised by the correspondence).  The D-dimensional transform is the iterate of the 1-D one
   along each axis (C04_round_trip_any_dimension); the other transform statements are per axis. *)
From Coq Require Import ZArith List Lia.
From EXV Require Import Base.Scalar Base.FieldLemmas Layout.Freq Layout.FreqProofs DFT.DFT1 DFT.DFTD.
Import ListNotations.

(* every signed wavenumber of the band occurs at exactly one stored index, and the wavenumber array names it;
   the stored frequency is congruent to the index mod N (so on the grid mode j IS exp(2 pi i fftfreq(j) x / L)) *)
Theorem C04_wavenumber_bijection : forall N : Z, (0 < N)%Z ->
  (forall j, (0 <= j < N)%Z -> (- (N / 2) <= fftfreq N j <= (N - 1) / 2)%Z /\ unfreq N (fftfreq N j) = j
                               /\ ((fftfreq N j - j) mod N = 0)%Z)
  /\ (forall k, (- (N / 2) <= k <= (N - 1) / 2)%Z -> (0 <= unfreq N k < N)%Z /\ fftfreq N (unfreq N k) = k).
Proof.
  intros N HN. split.
  - intros j Hj. split; [apply fftfreq_range | split; [apply unfreq_fftfreq | apply fftfreq_congr]]; assumption.
  - intros k Hk. split; [apply unfreq_range | apply fftfreq_unfreq]; assumption.
Qed.
Print Assumptions C04_wavenumber_bijection.

(* the inverse transform undoes the forward transform for EVERY state (any field with a primitive root) *)
Theorem C04_round_trip : forall (F : FieldT) (n : nat) (w w' : F),
  (0 < n)%nat -> fpow w n = o1 -> (forall m, (0 < m < n)%nat -> fpow w m <> o1) -> omul w w' = o1 ->
  forall (u : nat -> F) (j : nat), (j < n)%nat -> idft n w' (dft n w u) j = u j.
Proof. intros F n w w' Hn H1 H2 H3 u j Hj. apply dft_inversion; assumption. Qed.
Print Assumptions C04_round_trip.

(* the same in every dimension: the D-fold iterate of the inverse transform undoes the D-fold iterate of the transform at every grid point *)
Theorem C04_round_trip_any_dimension : forall (F : FieldT) (n : nat) (w w' : F),
  (0 < n)%nat -> fpow w n = o1 -> (forall m, (0 < m < n)%nat -> fpow w m <> o1) -> omul w w' = o1 ->
  forall (D : nat) (u : list nat -> F) (j : list nat), length j = D -> Forall (fun b => (b < n)%nat) j ->
  idftI n D w' (dftD n D w u) j = u j.
Proof. intros F n w w' Hn H1 H2 H3 D u j Hl Hj. apply (dftD_inversion F n w w'); try assumption. split; assumption. Qed.
Print Assumptions C04_round_trip_any_dimension.

(* a sampled character c * exp(+2 pi i m j / n) appears in exactly the stored mode m with value n*c, 0 elsewhere
   (a cosine a cos(theta + phi) is the sum of the characters m and -m with c = a e^{i phi}/2 and its conjugate) *)
Theorem C04_single_mode : forall (F : FieldT) (n : nat) (w w' : F),
  (0 < n)%nat -> fpow w n = o1 -> (forall m, (0 < m < n)%nat -> fpow w m <> o1) -> omul w w' = o1 ->
  forall (c : F) (m k : nat), (m < n)%nat -> (k < n)%nat ->
  dft n w (fun j => omul c (fpow w' (j * m))) k = if (k =? m)%nat then omul (fz (Z.of_nat n)) c else o0.
Proof. intros F n w w' Hn H1 H2 H3 c m k Hm Hk. apply dft_single_mode; assumption. Qed.
Print Assumptions C04_single_mode.

(* the Nyquist ("oddball") mask keeps everything for odd N and removes exactly the modes with some |k_c| = N/2 for even N *)
Theorem C04_oddball_mask : forall (D : nat) (N : Z) (idx : list Z),
  (Z.odd N = true -> oddball_mask D N idx = true)
  /\ (Z.even N = true -> oddball_mask D N idx = forallb (fun k => Z.abs k <=? N / 2 - 1)%Z (wnvec D N idx)).
Proof. intros. split; [apply oddball_odd | apply oddball_even]. Qed.
Print Assumptions C04_oddball_mask.

(* both indexing options give arrays of wavenumber_shape whose rfft component lives on the last array axis, and every
   wavenumber component varies along the same array axis as the grid component of the same name *)
Theorem C04_indexing_consistent : forall (xy : bool) (D : nat) (N : Z), (1 <= D <= 3)%nat ->
  map (wn_axis_len xy D N) (seq 0 D) = wavenumber_shape D N
  /\ forall c idx idx', (c < D)%nat -> nth (mesh_axis xy D c) idx 0%Z = nth (mesh_axis xy D c) idx' 0%Z ->
       wavenumber xy D N c idx = wavenumber xy D N c idx'
       /\ (mesh_axis xy D c = (D - 1)%nat <-> c = rfft_component xy D)
       /\ mesh_axis xy D (mesh_axis xy D c) = c.
Proof.
  intros xy D N HD. split; [apply indexing_shape; exact HD|].
  intros c idx idx' Hc H. destruct (indexing_consistent xy D N c idx idx' HD Hc H) as [A B].
  split; [exact A | split; [exact B | apply mesh_axis_involution]].
Qed.
Print Assumptions C04_indexing_consistent.

(* wrap_bc appends entry 0 after entry N-1 (periodic closure); grid index j is the point j*L/N, left-inclusive *)
Theorem C04_grid_wrap : forall N : Z, (0 < N)%Z ->
  (forall j, (0 <= j < N)%Z -> wrap_index N j = j) /\ wrap_index N N = 0%Z /\ grid_len false N = N /\ grid_len true N = (N + 1)%Z.
Proof.
  intros N HN. split; [apply wrap_index_small|].
  split; [apply wrap_index_same | split; reflexivity].
Qed.
Print Assumptions C04_grid_wrap.

(* mode slices: the leading-axis indices of a grid are split into a left and a right block, and an entry copied to a finer grid
   keeps its signed wavenumber (shared with C15) *)
Theorem C04_mode_slices : forall n m j : Z, (0 < n)%Z -> (n <= m)%Z -> (0 <= j < n)%Z ->
  ((in_left n n j = true /\ in_right n n j = false) \/ (in_left n n j = false /\ in_right n n j = true))
  /\ (in_left n n j = true -> in_left n m j = true /\ fftfreq m j = fftfreq n j)
  /\ (in_right n n j = true -> in_right n m (j + (m - n)) = true /\ fftfreq m (j + (m - n)) = fftfreq n j).
Proof. exact mode_blocks. Qed.
Print Assumptions C04_mode_slices.

(* the layout functions of exponax/_spectral.py are re-translated from the source on every run (harness/translate/spectral.py ->
   Gen/SpectralGen.v; a symbolic execution of the function bodies, callees inlined, fail-closed) and equal the hand-written layout
   for every number of axes, grid size, cutoff and stored index: the wavenumbers and the per-axis mask under both indexing conventions,
   the model's masks under the default "ij" *)
From EXV Require Import Gen.SpectralGen Tie.SpectralTie.
Theorem C04_code_layout_is_model_layout : forall (K : Ops) (xy : bool) (D : nat) (N cutoff : Z) (idx : list Z),
  gen_wavenumber_shape D N = wavenumber_shape D N
  /\ gen_spatial_shape D N = repeat N D
  /\ (length (gen_space_indices D) = D /\ forall i, (i < D)%nat -> nth i (gen_space_indices D) 0%Z = (Z.of_nat i - Z.of_nat D)%Z)
  /\ (forall c, (c < D)%nat -> gen_build_wavenumbers xy D N c idx = wavenumber xy D N c idx)
  /\ gen_low_pass_filter_mask_axis xy D N cutoff idx = forallb (fun c => (Z.abs (wavenumber xy D N c idx) <=? cutoff)%Z) (seq 0 D)
  /\ gen_low_pass_filter_mask_axis false D N cutoff idx = low_pass_axis D N cutoff idx
  /\ gen_low_pass_filter_mask_radial false D N cutoff idx = low_pass_radial D N cutoff idx
  /\ gen_oddball_filter_mask D N idx = oddball_mask D N idx.
Proof.
  intros K xy D N cutoff idx. split; [reflexivity|]. split; [reflexivity|]. split; [apply space_indices_tie|].
  split; [intros c Hc; apply wavenumbers_tie; exact Hc|]. split; [apply low_pass_axis_tie_xy|].
  split; [apply low_pass_axis_tie|]. split; [apply low_pass_radial_tie | apply oddball_tie].
Qed.
Print Assumptions C04_code_layout_is_model_layout.

(* the scaling arrays of the source (all three modes): element * 2^(halvings of the model) = N^D, i.e. element = N^D / 2^halvings;
   the mode slices of the source, read with Python's slice semantics on an axis of any length, are the model's index sets;
   make_grid of the source (exponax/_utils.py) puts x_j = j L / N on every axis (N + 1 points when full), shifted by L / 2 when zero_centered *)
Theorem C04_code_scaling_and_slices_are_model : forall (F : FieldT) (D : nat) (N : Z) (idx : list Z) (mode : Z),
  (mode = 10 \/ mode = 11 \/ mode = 12)%Z ->
  omul (if (mode =? 10)%Z then gen_build_scaling_array_norm_compensation F false D N idx
        else if (mode =? 11)%Z then gen_build_scaling_array_reconstruction F false D N idx
        else gen_build_scaling_array_coef_extraction F false D N idx)
       (fpow (fz 2) (Z.to_nat (scaling_halvings D N (fst (mode_denoms mode)) (snd (mode_denoms mode)) idx))) = fpow (fz N) D
  /\ (forall len j : Z, (2 <= N)%Z -> (0 <= len)%Z ->
        in_py_slice len (gen_modes_slice_left N) j = in_left N len j
        /\ in_py_slice len (gen_modes_slice_right N) j = in_right N len j
        /\ in_py_slice len (gen_modes_slice_last N) j = in_last N len j)
  /\ (forall (pi L : F) (full zero_centered xy : bool) (c : nat),
        gen_make_grid F full zero_centered xy D L N c idx =
        (let j := nth (mesh_axis xy D c) idx 0%Z in
         let x := odiv (omul (fz (fst (grid_num full N j))) L) (fz (snd (grid_num full N j))) in
         if zero_centered then osub x (odiv L (fz 2)) else x)).
Proof.
  intros F D N idx mode Hm. split; [|split].
  - apply scaling_modes_halvings; exact Hm.
  - intros len j HN Hl. split; [|split].
    + apply modes_slice_left_tie; lia.
    + apply modes_slice_right_tie; lia.
    + apply modes_slice_last_tie; lia.
  - intros pi L full zero_centered xy c. apply make_grid_tie.
Qed.
Print Assumptions C04_code_scaling_and_slices_are_model.

(* non-vacuity: i is a primitive 4th root of unity in the Gaussian rationals *)
From EXV Require Import Base.Cplx.

Example C04_ex_primitive_root :
  let w : QcC := @ci QcOps in
  fpow w 4 = @o1 QcC /\ fpow w 1 <> @o1 QcC /\ fpow w 2 <> @o1 QcC /\ fpow w 3 <> @o1 QcC.
Proof.
  cbv zeta. repeat split; try (apply cx_ext; vm_compute; reflexivity);
    intro H; apply (f_equal re) in H; vm_compute in H; discriminate H.
Qed.

(* non-vacuity of the source tie: the regenerated layout evaluated on a 2-D grid with N = 6 - stored index (4, 3) holds the wavenumber
   vector (-2, 3) (ij), the oddball mask removes it (Nyquist on the last axis), the reconstruction scaling there is 6 * 6 = 36 over the rationals *)
From Coq Require Import QArith Qcanon.
Example C04_ex_regenerated_layout :
  gen_build_wavenumbers false 2 6 0 [4; 3]%Z = (-2)%Z /\ gen_build_wavenumbers false 2 6 1 [4; 3]%Z = 3%Z
  /\ gen_oddball_filter_mask 2 6 [4; 3]%Z = false /\ gen_oddball_filter_mask 2 6 [4; 2]%Z = true
  /\ this (gen_build_scaling_array_reconstruction QcField false 2 6 [4; 3]%Z) = (36 # 1)%Q
  /\ this (gen_build_scaling_array_reconstruction QcField false 2 6 [4; 2]%Z) = (18 # 1)%Q.
Proof. repeat split; vm_compute; reflexivity. Qed.
