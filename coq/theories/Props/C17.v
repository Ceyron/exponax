(* C17 — radial spectrum: every mode lands in its documented bin with Parseval weights.
   Model: Spectral/Spectrum.v (hand-written from get_spectrum in _spectral.py; exact correspondence of whole spectra on every run). *)
From Coq Require Import ZArith List Lia.
From EXV Require Import Base.Scalar Layout.Freq Spectral.Spectrum Spectral.SpectrumProofs Nonlin.Conv.
Import ListNotations.

(* bin b collects exactly the modes with (2b-1)^2 <= 4|k|^2 < (2b+1)^2, i.e. b = round(|k|) with half-open bins [b-1/2, b+1/2);
   bins are disjoint; a mode inside the Nyquist sphere |k| < N/2 + 1/2 lies in exactly one of the bins 0..N/2; modes outside lie in none *)
Theorem C17_bins : forall (N b b' : Z) (k : list Z), (0 <= N)%Z -> (0 <= b)%Z -> (0 <= b')%Z ->
  (in_bin b k = true <-> ((b = 0 \/ (2 * b - 1) * (2 * b - 1) <= 4 * norm2 k) /\ 4 * norm2 k < (2 * b + 1) * (2 * b + 1))%Z)
  /\ (in_bin b k = true -> in_bin b' k = true -> b = b')
  /\ ((4 * norm2 k < (2 * (N / 2) + 1) * (2 * (N / 2) + 1))%Z -> exists c, (0 <= c <= N / 2)%Z /\ in_bin c k = true)
  /\ ((b <= N / 2)%Z -> ((2 * (N / 2) + 1) * (2 * (N / 2) + 1) <= 4 * norm2 k)%Z -> in_bin b k = false).
Proof.
  intros N b b' k HN Hb Hb'. split; [|split; [|split]].
  - apply in_bin_iff. exact Hb.
  - apply bins_disjoint; assumption.
  - apply bin_exists. exact HN.
  - intros H1 H2. apply (bin_outside N); [split; assumption | exact H2].
Qed.
Print Assumptions C17_bins.

(* 4|k|^2 is never an odd square: the floating-point comparison of |k| with b +- 1/2 cannot sit on a bin boundary *)
Theorem C17_bin_margin : forall (b : Z) (k : list Z), (4 * norm2 k <> (2 * b + 1) * (2 * b + 1))%Z.
Proof. exact bin_margin. Qed.
Print Assumptions C17_bin_margin.

(* amplitude spectrum: the stored mode of a cos(k.x + phase) (|u_hat| = N^D a/2, or N^D a at a self-conjugate last-axis wavenumber) reads a;
   power spectrum: the quantity is wgt |u_hat|^2 / (2 N^2D) with wgt = 2 unless the last-axis wavenumber is self-conjugate: the weights of the
   half-spectrum Parseval identity (proved in Metrics/ParsevalRealD.v, stated in C16), under which these quantities sum to mean(u^2)/2
   (the statement below gives the weights only; that sum is not stated as a theorem) *)
Theorem C17_weights : forall (F : FieldT) (N : Z) (ND : F) (k : list Z) (a : F), ND <> o0 ->
  amplitude_q F N ND k (if axis_plain N (last k 0%Z) true then omul ND a else odiv (omul ND a) (fz 2)) = a
  /\ power_q F N ND k a = odiv (omul (if axis_plain N (last k 0%Z) true then o1 else fz 2) (omul a a)) (omul (fz 2) (omul ND ND)).
Proof. intros F N ND k a H. split; [apply amplitude_of_stored_mode | apply power_is_parseval_weight]; exact H. Qed.
Print Assumptions C17_weights.

Example C17_ex : in_bin 5 [3; 4]%Z = true /\ in_bin 4 [3; 4]%Z = false /\ in_bin 2 [1; 1; 1]%Z = true /\ in_bin 0 [0; 0]%Z = true.
Proof. repeat split; reflexivity. Qed.

(* the bins 0..N/2 together carry every stored mode inside the Nyquist sphere exactly once and nothing else: the binned spectrum summed over
   all bins is the total of the per-mode quantities inside the sphere (sum binning; any list of stored modes, any D, any channel) *)
Theorem C17_bins_total : forall (F : FieldT) (N : Z) (qs : list (list Z * F)), (0 <= N)%Z ->
  fsum (map (fun b => bin_sum F b qs) (zrange 0 (N / 2))) = fsum (map (fun p => if inside N (fst p) then snd p else o0) qs).
Proof. intros. apply bins_total. assumption. Qed.
Print Assumptions C17_bins_total.

(* get_spectrum of the source: its structure (transform, the two scaling arrays, the scan over build_wavenumbers(1, N)[0, :] with a vmap
   over channels, nansum / nanmean over the mask lower <= |k| < upper) is compared with the expected text, and what decides the values is
   re-translated on every run (harness/translate/spectrum.py -> Gen/SpectrumGen.v): the per-mode quantity is the model's (power and
   amplitude), the scaling arrays are the reconstruction and norm-compensation ones, and with bin spacing dk = 1 the limits of bin b are
   b -+ 1/2, i.e. twice the limits are the integers 2b -+ 1 whose squares in_bin compares with 4|k|^2 *)
From EXV Require Import Gen.SpectrumGen.
Theorem C17_code_quantity_and_bins_are_model : forall (F : FieldT) (N : Z) (ND : F) (k : list Z) (a : F) (b : Z),
  gen_spec_quantity F true a (recon_scale F N ND k) ND = power_q F N ND k a
  /\ gen_spec_quantity F false a (recon_scale F N ND k) ND = amplitude_q F N ND k a
  /\ gen_spec_mode_r = 11%Z /\ gen_spec_mode_c = 10%Z
  /\ omul (fz 2) (gen_spec_lower F (fz b) (fz 1)) = fz (2 * b - 1)
  /\ omul (fz 2) (gen_spec_upper F (fz b) (fz 1)) = fz (2 * b + 1).
Proof.
  intros F N ND k a b. do 4 (split; [reflexivity|]). split; [apply doubled_lower | apply doubled_upper].
Qed.
Print Assumptions C17_code_quantity_and_bins_are_model.
