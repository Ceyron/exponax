(* C14 — rollout, repeat and the wrapper steppers equal the naive loop.
   Model: Utils/Rollout.v (hand-written from exponax/_utils.py and _repeated_stepper.py; tied to the code by the exact
   correspondence suites of harness/props/c14.py and by re-translation from the source, see C14_code_utilities_are_model_utilities
   and C14_code_wrappers_are_model_wrappers; the model of ForcedStepper is forced_step of ETDRK/Forcing.v, the subject of C12: here only
   the input it hands to the inner step, u + dt f, is read off the regenerated code).
   All statements hold for every state type A (pytrees included: a pytree state is one value),
   every stepper function f, every n. *)
From Coq Require Import List.
From EXV Require Import Utils.Rollout Utils.RolloutProofs.
Import ListNotations.

(* entry i of a rollout is the (i+1)-fold application; the rollout has n entries *)
Theorem C14_rollout_entries : forall (A : Type) (f : A -> A) (n : nat) (u0 : A) (i : nat),
  i < n -> nth_error (rollout f n false u0) i = Some (iter (S i) f u0).
Proof. exact rollout_nth. Qed.
Print Assumptions C14_rollout_entries.

Theorem C14_rollout_length : forall (A : Type) (f : A -> A) (n : nat) (b : bool) (u0 : A),
  length (rollout f n b u0) = if b then S n else n.
Proof. exact rollout_length. Qed.
Print Assumptions C14_rollout_length.

(* include_init prepends the initial state and shifts everything by one *)
Theorem C14_rollout_include_init : forall (A : Type) (f : A -> A) (n : nat) (u0 : A),
  rollout f n true u0 = u0 :: rollout f n false u0 /\
  forall i, i <= n -> nth_error (rollout f n true u0) i = Some (iter i f u0).
Proof. intros A f n u0. split; [apply rollout_init | intros i; apply rollout_init_nth]. Qed.
Print Assumptions C14_rollout_include_init.

Theorem C14_rollout_zero_steps : forall (A : Type) (f : A -> A) (u0 : A),
  rollout f 0 false u0 = [] /\ rollout f 0 true u0 = [u0].
Proof. exact rollout_zero. Qed.
Print Assumptions C14_rollout_zero_steps.

(* repeat returns the n-fold application = the last rollout entry *)
Theorem C14_repeat : forall (A : Type) (f : A -> A) (n : nat) (u0 : A),
  repeat_fn f n u0 = iter n f u0 /\ repeat_fn f n u0 = last (rollout f n true u0) u0.
Proof. intros. split; [apply repeat_spec | apply repeat_is_last_of_rollout]. Qed.
Print Assumptions C14_repeat.

(* auxiliary inputs: consumed in order (entry k has seen aux[0..k]) ... *)
Theorem C14_aux_in_order : forall (A X : Type) (f : A -> X -> A) (n : nat) (b : bool) (u0 : A) (xs : list X),
  length xs = n ->
  rollout_aux f n b false u0 (AuxSeq xs)
  = Some ((if b then [u0] else []) ++ map (fun k => fold_left f (firstn (S k) xs) u0) (seq 0 n))
  /\ repeat_aux f n false u0 (AuxSeq xs) = Some (fold_left f xs u0).
Proof. intros. split; [apply rollout_aux_seq | apply repeat_aux_seq]; assumption. Qed.
Print Assumptions C14_aux_in_order.

(* ... or held constant *)
Theorem C14_aux_constant : forall (A X : Type) (f : A -> X -> A) (n : nat) (b : bool) (u0 : A) (x : X),
  rollout_aux f n b true u0 (AuxConst x) = Some (rollout (fun u => f u x) n b u0)
  /\ repeat_aux f n true u0 (AuxConst x) = Some (iter n (fun u => f u x) u0).
Proof. intros. split; [apply rollout_aux_const | apply repeat_aux_const]. Qed.
Print Assumptions C14_aux_constant.

(* a stacked aux of the wrong length is rejected, not truncated or padded *)
Theorem C14_aux_wrong_length_rejected : forall (A X : Type) (f : A -> X -> A) (n : nat) (b : bool) (u0 : A) (xs : list X),
  length xs <> n -> rollout_aux f n b false u0 (AuxSeq xs) = None.
Proof. exact rollout_aux_seq_rejects. Qed.
Print Assumptions C14_aux_wrong_length_rejected.

(* sub-trajectory stacking: every contiguous window, in order, T-m+1 of them; m > T rejected *)
Theorem C14_windows : forall (A : Type) (trj : list A) (m : nat),
  (m <= length trj ->
     stack_sub trj m = Some (map (fun i => firstn m (skipn i trj)) (seq 0 (length trj - m + 1))))
  /\ (length trj < m -> stack_sub trj m = None).
Proof. intros. split; [apply stack_sub_spec | apply stack_sub_rejects]. Qed.
Print Assumptions C14_windows.

Theorem C14_window_entries : forall (A : Type) (trj : list A) (m : nat) (ws : list (list A)) (i j : nat),
  stack_sub trj m = Some ws -> i < length trj - m + 1 -> j < m ->
  exists w, nth_error ws i = Some w /\ length w = m /\ nth_error w j = nth_error trj (i + j).
Proof. exact stack_sub_window. Qed.
Print Assumptions C14_window_entries.

(* RepeatedStepper: ifft . (step_fourier)^n . fft equals n applications of ifft . step_fourier . fft
   on every state whose spectra survive the rfftn . irfftn round trip ([Good], closed under the step) *)
Theorem C14_repeated_stepper : forall (S Sh : Type) (fwd : S -> Sh) (bwd : Sh -> S) (sf : Sh -> Sh)
    (Good : Sh -> Prop),
  (forall u, Good (fwd u)) -> (forall y, Good y -> Good (sf y)) -> (forall y, Good y -> fwd (bwd y) = y) ->
  forall n u, 0 < n -> repeated_step fwd bwd sf n u = iter n (base_step fwd bwd sf) u.
Proof.
  intros S Sh fwd bwd sf Good H1 H2 H3 n u Hn.
  destruct (repeated_stepper_spec fwd bwd sf Good H1 H2 H3 n u) as [H|H]; [exact H | subst; inversion Hn].
Qed.
Print Assumptions C14_repeated_stepper.

(* rollout, repeat (with and without auxiliary input) and stack_sub_trajectories (on the list of leaves of the trajectory pytree)
   are re-translated from the source on every run
   (harness/translate/utilsfn.py -> Gen/UtilsGen.v: statement-by-statement into the option monad, fail-closed) and equal the
   hand-written model for every state type, step function, n, flag value and auxiliary argument; without aux nothing is rejected *)
From EXV Require Import Base.Scalar Gen.UtilsGen Tie.UtilsTie.
Theorem C14_code_utilities_are_model_utilities : forall (A X : Type) (f : A -> A) (g : A -> X -> A) (n : nat)
    (include_init constant_aux : bool) (u0 : A) (a : auxarg X),
  gen_rollout f n include_init constant_aux u0 = Some (rollout f n include_init u0)
  /\ gen_repeat f n constant_aux u0 = Some (repeat_fn f n u0)
  /\ gen_rollout_aux g n include_init constant_aux u0 a = rollout_aux g n include_init constant_aux u0 a
  /\ gen_repeat_aux g n constant_aux u0 a = repeat_aux g n constant_aux u0 a
  /\ (forall (leaves : list (list A)) (sub_len : nat), gen_stack_sub_trajectories leaves sub_len = stack_sub_tree leaves sub_len).
Proof.
  intros A X f g n include_init constant_aux u0 a. repeat split.
  - apply rollout_tie.
  - apply repeat_tie.
  - apply rollout_aux_tie.
  - apply repeat_aux_tie.
  - apply stack_sub_tie.
Qed.
Print Assumptions C14_code_utilities_are_model_utilities.

(* RepeatedStepper.step / step_fourier of the source are the model's (its dt is the inner dt times the number of sub-steps);
   ForcedStepper.step / step_fourier of the source hand u + dt * f to the inner step, at every array element *)
Theorem C14_code_wrappers_are_model_wrappers : forall (S Sh : Type) (fwd : S -> Sh) (bwd : Sh -> S) (sf : Sh -> Sh) (n : nat) (u : S)
    (K : Ops) (dt x f : K) (m : BinNums.Z),
  gen_repeated_step fwd bwd sf n u = Some (repeated_step fwd bwd sf n u)
  /\ gen_repeated_step_fourier sf n (fwd u) = Some (repeat_fn sf n (fwd u))
  /\ gen_repeated_dt K dt m = omul dt (fz m)
  /\ gen_forced_step_input K dt x f = oadd x (omul dt f)
  /\ gen_forced_step_fourier_input K dt x f = oadd x (omul dt f).
Proof.
  intros S Sh fwd bwd sf n u K dt x f m. destruct (repeated_step_tie _ _ fwd bwd sf n u) as [H1 H2].
  repeat split; try assumption; reflexivity.
Qed.
Print Assumptions C14_code_wrappers_are_model_wrappers.

Example C14_ex_rollout : rollout (fun u => 2 * u + 1) 4 true 5 = [5; 11; 23; 47; 95].
Proof. reflexivity. Qed.
Example C14_ex_windows : stack_sub [1; 2; 3; 4] 2 = Some [[1; 2]; [2; 3]; [3; 4]].
Proof. reflexivity. Qed.
Example C14_ex_repeated :
  repeated_step (fun u : nat => u) (fun y : nat => y) S 3 4 = iter 3 (base_step (fun u => u) (fun y => y) S) 4.
Proof. reflexivity. Qed.
