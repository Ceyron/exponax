(* C20 — malformed states and unsupported configurations are rejected, not accepted.
   Subject: Gen/Guards.v, regenerated on every run from the `if ...: raise` guards of exponax
   (BaseStepper/RepeatedStepper/Poisson __call__, spectral operator constructors, dimension-restricted steppers and
   nonlinear terms, option validation of generators and metrics, stack_sub_trajectories).
   Every predicate is true exactly when the code raises.  Shapes are arbitrary lists of integers, D, N, C arbitrary. *)
From Coq Require Import ZArith List Bool.
From EXV Require Import Base.FieldLemmas Gen.Guards IC.GeneratorsProofs.
Import ListNotations.
Local Open Scope Z_scope.

Lemma spatial_shape_spec d n : gen_spatial_shape d n = repeat n (Z.to_nat d).
Proof.
  unfold gen_spatial_shape, rep. induction (Z.to_nat d) as [|k IH]; [reflexivity|]. cbn. apply f_equal. exact IH.
Qed.

Lemma wavenumber_shape_spec d n :
  gen_wavenumber_shape d n = repeat n (Z.to_nat (d - 1)) ++ [n / 2 + 1].
Proof.
  unfold gen_wavenumber_shape. rewrite <- (spatial_shape_spec (d - 1) n). reflexivity.
Qed.

(* a stepper call is accepted iff the state has exactly the shape (C, N, ..., N) with D spatial axes:
   wrong channel count, extra batch axis, missing axis, unequal axis lengths are all rejected *)
Theorem C20_stepper_call_accepts_iff : forall (C D N : Z) (shape : list Z),
  base_call_raises C D N shape = false <-> shape = C :: repeat N (Z.to_nat D).
Proof.
  intros. unfold base_call_raises. rewrite negb_false_iff, sh_eqb_eq, spatial_shape_spec. reflexivity.
Qed.
Print Assumptions C20_stepper_call_accepts_iff.

Theorem C20_repeated_stepper_call_accepts_iff : forall (C D N : Z) (shape : list Z),
  repeated_call_raises C D N shape = false <-> shape = C :: repeat N (Z.to_nat D).
Proof.
  intros. unfold repeated_call_raises. rewrite negb_false_iff, sh_eqb_eq, spatial_shape_spec. reflexivity.
Qed.
Print Assumptions C20_repeated_stepper_call_accepts_iff.

(* Poisson: any channel count, but exactly D spatial axes of length N after the leading axis *)
Theorem C20_poisson_call_accepts_iff : forall (D N : Z) (shape : list Z),
  poisson_call_raises D N shape = false <-> tl shape = repeat N (Z.to_nat D).
Proof.
  intros. unfold poisson_call_raises. rewrite negb_false_iff, sh_eqb_eq, spatial_shape_spec.
  destruct shape; reflexivity.
Qed.
Print Assumptions C20_poisson_call_accepts_iff.

(* operators refuse derivative orders of the wrong parity (the gradient inner product also a velocity that is not of shape (D,)) *)
Theorem C20_operator_parity : forall order : Z,
  (laplace_order_raises order = true <-> Z.odd order = true)
  /\ (forall D v, gip_raises order D v = false <-> (Z.odd order = true /\ v = [D])).
Proof.
  (* order mod 2 is 0 or 1 as order is even or odd *)
  intros order. unfold laplace_order_raises, gip_raises. rewrite <- Z.negb_even, Zmod_even.
  destruct (Z.even order); cbn; (split; [reflexivity | intros D v]).
  - split; [discriminate | intros [H _]; discriminate H].
  - rewrite negb_false_iff, sh_eqb_eq. split; [intros ->; split; reflexivity | intros [_ H]; exact H].
Qed.
Print Assumptions C20_operator_parity.

(* dimension-restricted steppers and nonlinear terms refuse every other dimension *)
Theorem C20_dimension_guards : forall D : Z,
  (ns_vorticity_raises D = true <-> D <> 2) /\ (kolmogorov_vorticity_raises D = true <-> D <> 2)
  /\ (general_vorticity_raises D = true <-> D <> 2) /\ (vorticity_conv_raises D = true <-> D <> 2)
  /\ (ns_velocity_raises D = true <-> D <> 3) /\ (kolmogorov_velocity_raises D = true <-> D <> 3)
  /\ (projected_conv_raises D = true <-> D <> 3).
Proof.
  intros D. splits; apply negb_eqb_true_iff.
Qed.
Print Assumptions C20_dimension_guards.

(* channel-count guards of the multi-channel convection and make_incompressible (channels must equal the number of spatial axes) and of
   Gray-Scott (two channels); GeneralNonlinearFun / GeneralNonlinearStepper refuse a scale / coefficient list whose length is not 3 *)
Theorem C20_channel_guards : forall (D : Z) (shape : list Z),
  (convection_cons_raises D shape = true <-> nth 0 shape 0 <> D)
  /\ (convection_noncons_raises D shape = true <-> nth 0 shape 0 <> D)
  /\ (gray_scott_raises shape = true <-> nth 0 shape 0 <> 2)
  /\ (make_incompressible_raises shape = true <-> nth 0 shape 0 <> Z.of_nat (length (tl shape)))
  /\ (forall len, general_nonlin_raises len = true <-> Z.of_nat (Z.to_nat len) <> 3)
  /\ (forall len, general_nonlin_stepper_raises len = true <-> Z.of_nat (Z.to_nat len) <> 3).
Proof.
  intros D shape. splits; [apply negb_eqb_true_iff .. | |].
  - intros len. unfold general_nonlin_raises. rewrite repeat_length. apply negb_eqb_true_iff.
  - intros len. unfold general_nonlin_stepper_raises. rewrite repeat_length. apply negb_eqb_true_iff.
Qed.
Print Assumptions C20_channel_guards.

(* option validation: generators and metrics refuse exactly the documented-invalid combinations *)
Theorem C20_option_guards : forall (zero_mean std_one max_one ref_none : bool) (mode D : Z) (offset_zero : bool),
  (ic_options_raise zero_mean std_one max_one = true <-> (zero_mean = false /\ std_one = true) \/ (std_one = true /\ max_one = true))
  /\ (spatial_norm_raises ref_none mode = true <-> ref_none = true /\ (mode = 1 \/ mode = 2))
  /\ (fourier_norm_raises ref_none mode = true <-> ref_none = true /\ mode = 1)
  /\ (random_sine_raises D offset_zero std_one max_one = true <->
        D <> 1 \/ (offset_zero = false /\ std_one = true) \/ (std_one = true /\ max_one = true))
  /\ (forall D_none N_none shape, ifft_raises D D_none N_none shape = true <->
        N_none = true /\ (if D_none then Z.of_nat (length shape) - 1 else D) < 2).
Proof.
  intros. splits.
  - apply ic_options_raise_iff.
  - unfold spatial_norm_raises. rewrite <- andb_assoc, <- andb_orb_distrib_r, raise_chain.
    rewrite andb_true_iff, orb_true_iff, !Z.eqb_eq. reflexivity.
  - unfold fourier_norm_raises. rewrite andb_true_iff, Z.eqb_eq. reflexivity.
  - rewrite random_sine_raises_eq, orb_true_iff, negb_eqb_true_iff, ic_options_raise_iff. reflexivity.
  - intros D_none N_none shape. unfold ifft_raises. rewrite andb_true_iff, negb_true_iff, Z.geb_leb, Z.leb_gt. reflexivity.
Qed.
Print Assumptions C20_option_guards.

(* sub-trajectory stacking refuses leaves of different length and windows longer than the trajectory *)
Theorem C20_stack_sub_guard : forall (sub_len : Z) (lens : list Z),
  stack_sub_raises sub_len lens = false <->
  (exists T, lens <> [] /\ Forall (fun x => x = T) lens /\ sub_len <= T).
Proof.
  intros sub_len lens. unfold stack_sub_raises, all_eqb. destruct lens as [|T r]; cbn.
  - split; [discriminate | intros (T & H & _); congruence].
  - rewrite orb_false_iff, negb_false_iff, forallb_forall. rewrite Z.gtb_ltb, Z.ltb_ge. split.
    + intros [H1 H2]. exists T. split; [discriminate|]. split; [|exact H2].
      constructor; [reflexivity|]. apply Forall_forall. intros x Hx. symmetry. apply Z.eqb_eq. apply H1. exact Hx.
    + intros (T' & _ & HF & Hle). inversion HF as [|? ? E HF']; subst. split; [|exact Hle].
      intros x Hx. apply Z.eqb_eq. rewrite Forall_forall in HF'. symmetry. apply HF'. exact Hx.
Qed.
Print Assumptions C20_stack_sub_guard.

Example C20_ex_accept : base_call_raises 2 3 8 [2; 8; 8; 8] = false. Proof. reflexivity. Qed.
Example C20_ex_reject_batch : base_call_raises 2 3 8 [5; 2; 8; 8; 8] = true. Proof. reflexivity. Qed.
Example C20_ex_reject_unequal : base_call_raises 1 2 8 [1; 8; 9] = true. Proof. reflexivity. Qed.
Example C20_ex_poisson_batch : poisson_call_raises 2 8 [4; 3; 8; 8] = true. Proof. reflexivity. Qed.
