(* C07 — steppers are differentiable with correct derivatives (PARTIAL: the algebraic part is proved here; JAX's AD rules,
   reverse mode through lax.scan, NaN-safety of guarded divisions and the contour-integral coefficients are checked on the
   real code by harness/props/c07.py for every exported stepper class).

   Model: every model function takes [K : Ops] only, so it can be evaluated on DUAL NUMBERS [DualOps F] (Base/Dual.v): a value and
   an infinitesimal part with the product / quotient / chain rules of forward-mode AD.  The theorems say that the eps-part of the
   model evaluated at (u + eps v) is the algebraic directional derivative, for every field F of characteristic 0, every N, D, mode,
   state u, direction v and step count n:
     (a) sum / product / quotient / power rules; soundness for every polynomial expression (structural induction); chain rule
         through compositions and through the n-fold iterate (repeat / rollout entries);
     (b) linear steppers (mode-wise multiplication by exp(dt lambda_k); the wave step): the Jacobian is the map itself, also after
         n steps; central differences are exact; derivative with respect to dt and to the symbol;
     (c) the pseudo-spectral products prod2 / prod3 are bi- / trilinear; D prod2(U,U)[V] = prod2(U,V) + prod2(V,U); central
         differences of a quadratic map are EXACT and for a cubic map the remainder is exactly h^2 T(v,v,v);
     (d) reverse mode at the algebraic level: a diagonal multiplier is self-adjoint for the pairing sum_k v_k w_k, n-fold iterates
         too, and adjoints compose in reverse order;
     (e) ETD1, ETD2RK, ETD3RK, ETD4RK (ETDRK/Phi.v): derivative with respect to the state given the derivative DN of the
         nonlinear term, stage by stage; instance: the Burgers-type step with the modelled convection term.
   The same dual-number evaluation is extracted and compared with jax.jvp of the real code (Exec/EntryC07.v). *)
From Coq Require Import QArith Qcanon List.
From EXV Require Import Base.Scalar Base.FieldLemmas Base.Dual Base.DualProofs AD.Deriv AD.DerivProofs Utils.Rollout Utils.RolloutProofs
  Spectral.Symbols Steppers.Linear Nonlin.Conv Nonlin.Terms ETDRK.Phi.
Import ListNotations.
Local Open Scope fld_scope.

Theorem C07_dual_rules : forall (F : FieldT) (a b : DualOps F) (n : nat) (l : list (DualOps F)),
  eps (a + b) = eps a + eps b /\ eps (a - b) = eps a - eps b
  /\ val (a * b) = val a * val b /\ eps (a * b) = eps a * val b + val a * eps b
  /\ eps (a / b) = (eps a * val b - val a * eps b) / (val b * val b)
  /\ (val b <> 0 -> b * (a / b) = a /\ forall q, b * q = a -> q = a / b)
  /\ val (fpow a n) = fpow (val a) n /\ eps (fpow a (S n)) = fz (Z.of_nat (S n)) * fpow (val a) n * eps a
  /\ val (fsum l) = fsum (map val l) /\ eps (fsum l) = fsum (map eps l).
Proof.
  intros F a b n l. splits; try reflexivity.
  - intros Hb. split; [apply ddiv_ok; exact Hb | intros q Hq; apply ddiv_unique; assumption].
  - apply val_fpow.
  - apply eps_fpow.
  - apply val_fsum.
  - apply eps_fsum.
Qed.
Print Assumptions C07_dual_rules.

(* the dual numbers form a commutative ring containing F as constants (derivative 0), so every model term is evaluated in a ring *)
Theorem C07_dual_ring : forall F : FieldT,
  ring_theory (@o0 (DualOps F)) (@o1 (DualOps F)) (@oadd (DualOps F)) (@omul (DualOps F)) (@osub (DualOps F)) (@oopp (DualOps F)) eq
  /\ (forall z : Z, @fz (DualOps F) z = dconst (fz z)) /\ (forall q : Q, @fq (DualOps F) q = dconst (fq q))
  /\ (forall x y : F, @odiv (DualOps F) (dconst x) (dconst y) = dconst (x / y)).
Proof. intros F. splits; [apply dual_ring_theory | apply dual_fz | apply dual_fq | apply dconst_div]. Qed.
Print Assumptions C07_dual_ring.

(* soundness: for every polynomial expression e in any number of variables, evaluating e on (x + eps v) gives the value of e at x
   and its formal directional derivative (sum, product and power rules), which is linear in the direction *)
Theorem C07_dual_sound : forall (F : FieldT) (e : pexpr F) (x v w : nat -> F) (h : F),
  peval (K' := DualOps F) dconst (fun i => mkdual (x i) (v i)) e = mkdual (peval (K' := F) (fun c => c) x e) (pderiv F x v e)
  /\ pderiv F x (fun i => v i + w i) e = pderiv F x v e + pderiv F x w e
  /\ pderiv F x (fun i => h * v i) e = h * pderiv F x v e.
Proof. intros. splits; [apply dual_sound | apply pderiv_add | apply pderiv_scal]. Qed.
Print Assumptions C07_dual_sound.

(* chain rule: composition, and the n-fold iterate = repeat = every entry of a rollout (C14): the derivative is the product of the
   one-step Jacobians along the trajectory *)
Theorem C07_chain_rule_rollout : forall (F : FieldT) (I : Type)
  (fD : (I -> DualOps F) -> (I -> DualOps F)) (f : (I -> F) -> (I -> F)) (Df : (I -> F) -> (I -> F) -> (I -> F)),
  dual_deriv F I fD f Df -> ext_fun I fD ->
  forall (n : nat) (u v : I -> F) (k : I),
    repeat_fn fD n (lift u v) k = mkdual (repeat_fn f n u k) (Diter F I n f Df u v k)
    /\ (forall i, (i < n)%nat ->
          exists tD t, nth_error (rollout fD n false (lift u v)) i = Some tD /\ nth_error (rollout f n false u) i = Some t
                       /\ tD k = mkdual (t k) (Diter F I (S i) f Df u v k)).
Proof.
  intros F I fD f Df Hf Ef n u v k. split.
  - rewrite !repeat_spec. apply dual_iter; assumption.
  - intros i Hi. exists (iter (S i) fD (lift u v)), (iter (S i) f u). splits.
    + apply rollout_nth. exact Hi.
    + apply rollout_nth. exact Hi.
    + apply dual_iter; assumption.
Qed.
Print Assumptions C07_chain_rule_rollout.

Theorem C07_chain_rule_compose : forall (F : FieldT) (I : Type) fD f Df gD g Dg,
  dual_deriv F I fD f Df -> dual_deriv F I gD g Dg -> ext_fun I gD ->
  dual_deriv F I (fun p => gD (fD p)) (fun u => g (f u)) (fun u v => Dg (f u) (Df u v)).
Proof. intros. apply dual_chain; assumption. Qed.
Print Assumptions C07_chain_rule_compose.

Theorem C07_linear_jacobian_is_the_map : forall (F : FieldT) (I : Type) (cexp : F -> F) (lam : I -> F) (dt : F) (n : nat) (u v : I -> F) (k : I),
  let step := linear_step F cexp I dt lam in
  let stepD := linear_step (DualOps F) (dlift cexp cexp) I (dconst dt) (dconstf lam) in
  stepD (lift u v) k = mkdual (step u k) (step v k)
  /\ repeat_fn stepD n (lift u v) k = mkdual (repeat_fn step n u k) (repeat_fn step n v k)
  /\ (forall h, h <> 0 -> cdiff step u h v k = step v k).
Proof.
  intros F I cexp lam dt n u v k step stepD. splits.
  - apply linear_step_dual.
  - rewrite !repeat_spec. apply iter_linear_step_dual.
  - intros h Hh. apply linear_fd_exact; [apply linear_step_linear | exact Hh].
Qed.
Print Assumptions C07_linear_jacobian_is_the_map.

(* derivative of the propagator with respect to dt and to the symbol (hence to every coefficient the symbol depends on),
   with exp lifted by exp' = exp; the lifted exp satisfies the exponential law again *)
Theorem C07_propagator_dt_and_symbol_derivative : forall (F : FieldT) (I : Type) (cexp : F -> F) (lam dlam u : I -> F) (dt : F) (k : I),
  linear_step (DualOps F) (dlift cexp cexp) I (dvar dt) (dconstf lam) (dconstf u) k
    = mkdual (linear_step F cexp I dt lam u k) (lam k * linear_step F cexp I dt lam u k)
  /\ linear_step (DualOps F) (dlift cexp cexp) I (dconst dt) (lift lam dlam) (dconstf u) k
    = mkdual (linear_step F cexp I dt lam u k) (dt * dlam k * linear_step F cexp I dt lam u k)
  /\ ((forall x y, cexp (x + y) = cexp x * cexp y) -> cexp 0 = 1 ->
      (forall a b : DualOps F, dexp F cexp (a + b) = dexp F cexp a * dexp F cexp b) /\ dexp F cexp 0 = 1).
Proof.
  intros F I cexp lam dlam u dt k. splits.
  - apply linear_step_dual_dt.
  - apply linear_step_dual_symbol.
  - intros Ha H0. split; [intros a b; apply (dexp_add F cexp Ha) | apply (dexp_0 F cexp H0)].
Qed.
Print Assumptions C07_propagator_dt_and_symbol_derivative.

(* the wave step (diagonalisation, guarded division by |k|, mean-mode drift) is linear in (h, v): Jacobian = the step *)
Theorem C07_wave_jacobian_is_the_map : forall (F : FieldT) (ii s c rho dt Ep Em : F) (is_dc : bool) (h dh v dv : F),
  ii <> 0 -> c <> 0 ->
  wave_mode (DualOps F) (dconst ii) (dconst s) (dconst c) (dconst rho) (dconst dt) (dconst Ep) (dconst Em) is_dc (mkdual h dh) (mkdual v dv)
  = (mkdual (fst (wave_mode F ii s c rho dt Ep Em is_dc h v)) (fst (wave_mode F ii s c rho dt Ep Em is_dc dh dv)),
     mkdual (snd (wave_mode F ii s c rho dt Ep Em is_dc h v)) (snd (wave_mode F ii s c rho dt Ep Em is_dc dh dv))).
Proof. intros. apply wave_mode_dual; assumption. Qed.
Print Assumptions C07_wave_jacobian_is_the_map.

(* derivative of the linear symbols with respect to the coefficients: generic coefficient lists (linear in the list), Burgers,
   Kuramoto-Sivashinsky, and Swift-Hohenberg (quadratic in the critical number) *)
Theorem C07_symbol_coefficient_derivatives : forall (F : FieldT) (d : list F),
  (forall a da, length a = length da ->
     poly_sym (DualOps F) (map2 mkdual a da) (map dconst d) = mkdual (poly_sym F a d) (poly_sym F da d))
  /\ (forall nu dnu, sym_burgers (DualOps F) (mkdual nu dnu) (map dconst d) = mkdual (sym_burgers F nu d) (dnu * laplace_sym F 2 d))
  /\ (forall s2 ds2 s4 ds4, sym_ks (DualOps F) (mkdual s2 ds2) (mkdual s4 ds4) (map dconst d)
        = mkdual (sym_ks F s2 s4 d) (- ds2 * laplace_sym F 2 d - ds4 * laplace_sym F 4 d))
  /\ (forall r dr kc dkc, sym_swift_hohenberg (DualOps F) (mkdual r dr) (mkdual kc dkc) (map dconst d)
        = mkdual (sym_swift_hohenberg F r kc d) (dr - fz 2 * (kc + laplace_sym F 2 d) * dkc)).
Proof.
  intros F d. splits.
  - intros. apply poly_sym_dual. assumption.
  - intros. apply sym_burgers_dual.
  - intros. apply sym_ks_dual.
  - intros. apply sym_swift_hohenberg_dual.
Qed.
Print Assumptions C07_symbol_coefficient_derivatives.

Theorem C07_quadratic_fd_exact : forall (F : FieldT) (I : Type) (B : (I -> F) -> (I -> F) -> (I -> F)),
  bilinear B -> forall (u v : I -> F) (h : F) (k : I),
    quad F I B (pert u h v) k = quad F I B u k + h * Dquad F I B u v k + h * h * quad F I B v k
    /\ (h <> 0 -> cdiff (quad F I B) u h v k = Dquad F I B u v k).
Proof. intros F I B HB u v h k. split; [apply quad_expand | apply quad_fd_exact]; assumption. Qed.
Print Assumptions C07_quadratic_fd_exact.

Theorem C07_cubic_fd_remainder : forall (F : FieldT) (I : Type) (T : (I -> F) -> (I -> F) -> (I -> F) -> (I -> F)),
  trilinear T -> forall (u v : I -> F) (h : F) (k : I), h <> 0 ->
    cdiff (cub F I T) u h v k = Dcub F I T u v k + h * h * cub F I T v k.
Proof. intros F I T HT u v h k Hh. apply cub_fd_remainder; assumption. Qed.
Print Assumptions C07_cubic_fd_remainder.

(* the pseudo-spectral products of the code are bi-/trilinear, and their dual evaluation is the product rule;
   hence central differences of U |-> prod2(U,U) are exact and those of U |-> prod3(U,U,U) have remainder h^2 prod3(V,V,V) *)
Theorem C07_pseudo_spectral_products : forall (F : FieldT) (D : nat) (N Kc : Z),
  bilinear (prod2 F D N Kc) /\ trilinear (prod3 F D N Kc)
  /\ (forall (U V U' V' : field F) (k : idx),
        prod2 (DualOps F) D N Kc (lift U V) (lift U' V') k
        = mkdual (prod2 F D N Kc U U' k) (prod2 F D N Kc V U' k + prod2 F D N Kc U V' k))
  /\ (forall (U V : field F) (h : F) (k : idx), h <> 0 ->
        cdiff (fun W => prod2 F D N Kc W W) U h V k = prod2 F D N Kc U V k + prod2 F D N Kc V U k)
  /\ (forall (U V : field F) (h : F) (k : idx), h <> 0 ->
        cdiff (fun W => prod3 F D N Kc W W W) U h V k
        = prod3 F D N Kc V U U k + prod3 F D N Kc U V U k + prod3 F D N Kc U U V k + h * h * prod3 F D N Kc V V V k).
Proof.
  intros F D N Kc. splits.
  - apply prod2_bilinear.
  - apply prod3_trilinear.
  - intros. apply prod2_dual.
  - intros U V h k Hh. apply (quad_fd_exact F idx (prod2 F D N Kc) (prod2_bilinear F D N Kc) U h V k Hh).
  - intros U V h k Hh. apply (cub_fd_remainder F idx (prod3 F D N Kc) (prod3_trilinear F D N Kc) U h V k Hh).
Qed.
Print Assumptions C07_pseudo_spectral_products.

(* the modelled single-channel conservative convection term -b/2 (sum_c d_c)(u^2): derivative with respect to the state
   (the term with the product replaced by prod2(U,V) + prod2(V,U)) and with respect to the scale b (the term is linear in b) *)
Theorem C07_convection_term_derivative : forall (F : FieldT) (D : nat) (N Kc : Z) (ii s b db : F) (Dx : nat) (U V : field F) (k : idx),
  conv_sc_cons (DualOps F) (prod2 (DualOps F) D N Kc) (dconst ii) (dconst s) Dx (dconst b) (lift U V) k
    = mkdual (conv_sc_cons F (prod2 F D N Kc) ii s Dx b U k)
             (conv_sc_cons F (fun A _ => Dquad F idx (prod2 F D N Kc) A V) ii s Dx b U k)
  /\ conv_sc_cons (DualOps F) (prod2 (DualOps F) D N Kc) (dconst ii) (dconst s) Dx (mkdual b db) (dconstf U) k
    = mkdual (conv_sc_cons F (prod2 F D N Kc) ii s Dx b U k) (conv_sc_cons F (prod2 F D N Kc) ii s Dx db U k).
Proof. intros. split; [apply conv_sc_cons_dual | apply conv_sc_cons_dual_scale]. Qed.
Print Assumptions C07_convection_term_derivative.

Theorem C07_adjoint_diagonal : forall (F : FieldT) (I : Type) (l : list I) (E v w : I -> F) (n : nat),
  pairing l (diag E v) w = pairing l v (diag E w)
  /\ pairing l (iter n (diag E) v) w = pairing l v (iter n (diag E) w)
  /\ (forall A A' C C' : (I -> F) -> (I -> F),
        (forall x y, pairing l (A x) y = pairing l x (A' y)) -> (forall x y, pairing l (C x) y = pairing l x (C' y)) ->
        pairing l (A (C v)) w = pairing l v (C' (A' w))).
Proof.
  intros F I l E v w n. splits.
  - apply diag_self_adjoint.
  - apply iter_adjoint. apply diag_self_adjoint.
  - intros A A' C C' HA HC. apply adjoint_compose; assumption.
Qed.
Print Assumptions C07_adjoint_diagonal.

(* the ETD tableaux: derivative with respect to the state, given the derivative DN of the nonlinear term.
   The full statement of this part of the property has also the derivative with respect to dt and to the coefficients, which enter through
   z = dt*lambda, E = exp z and the phi-functions evaluated by a contour integral; that part is NOT proved (no complex analysis in
   the installed libraries) and is checked on the real code against central differences for every class and order. *)
Theorem C07_etdrk_state_derivative_partial : forall (F : FieldT) (I : Type) (h : F) (z E Eh : I -> F)
  (N : (I -> F) -> (I -> F)) (ND : (I -> DualOps F) -> (I -> DualOps F)) (DN : (I -> F) -> (I -> F) -> (I -> F)),
  dual_deriv F I ND N DN -> ext_fun I ND ->
  let hD := (dconst h : DualOps F) in let zD := dconstf z in let ED := dconstf E in let EhD := dconstf Eh in
  dual_deriv F I (etd1 hD zD ED ND) (etd1 h z E N) (fun u v k => E k * v k + h * (phi1 (z k) (E k) * DN u v k))
  /\ dual_deriv F I (etd2rk hD zD ED ND) (etd2rk h z E N) (Detd2rk F I h z E N DN)
  /\ dual_deriv F I (etd3rk hD zD ED EhD ND) (etd3rk h z E Eh N) (Detd3rk F I h z E Eh N DN)
  /\ dual_deriv F I (etd4rk hD zD ED EhD ND) (etd4rk h z E Eh N) (Detd4rk F I h z E Eh N DN).
Proof.
  intros F I h z E Eh N ND DN HN EN hD zD ED EhD. splits.
  - exact (etd1_dual F I h z E N ND DN HN EN).
  - apply etd2rk_dual; assumption.
  - apply etd3rk_dual; assumption.
  - apply etd4rk_dual; assumption.
Qed.
Print Assumptions C07_etdrk_state_derivative_partial.

(* instance (hypotheses of (e) are met by a modelled term): the ETD1 and ETD2RK Burgers-type steps, and their n-fold iterates *)
Theorem C07_burgers_step_jacobian : forall (F : FieldT) (D : nat) (N Kc : Z) (ii s b h : F) (Dx : nat) (z E : field F) (n : nat),
  let NL := conv_sc_cons F (prod2 F D N Kc) ii s Dx b in
  let NLD := conv_sc_cons (DualOps F) (prod2 (DualOps F) D N Kc) (dconst ii) (dconst s) Dx (dconst b) in
  let DNL := fun U V => conv_sc_cons F (fun A _ => Dquad F idx (prod2 F D N Kc) A V) ii s Dx b U in
  dual_deriv F idx (etd1 (dconst h : DualOps F) (dconstf z) (dconstf E) NLD) (etd1 h z E NL) (Detd1 F idx h z E DNL)
  /\ dual_deriv F idx (etd2rk (dconst h : DualOps F) (dconstf z) (dconstf E) NLD) (etd2rk h z E NL) (Detd2rk F idx h z E NL DNL)
  /\ dual_deriv F idx (iter n (etd1 (dconst h : DualOps F) (dconstf z) (dconstf E) NLD)) (iter n (etd1 h z E NL))
                      (Diter F idx n (etd1 h z E NL) (Detd1 F idx h z E DNL)).
Proof.
  intros F D N Kc ii s b h Dx z E n NL NLD DNL.
  assert (HN : dual_deriv F idx NLD NL DNL) by (intros u v k; apply conv_sc_cons_dual).
  assert (H1 := etd1_dual F idx h z E NL NLD DNL HN (conv_sc_cons_ext _ D N Kc _ _ _ Dx)).
  splits.
  - exact H1.
  - apply etd2rk_dual; [exact HN | apply conv_sc_cons_ext].
  - apply dual_iter; [exact H1 | apply etd1_ext, conv_sc_cons_ext].
Qed.
Print Assumptions C07_burgers_step_jacobian.

(* d/dx (x^3 - 2x) at x = 3 is 25 *)
Example C07_ex_poly :
  let x : DualOps QcField := @dvar QcField (Q2Qc 3) in
  (fpow x 3 - fz 2 * x) = (mkdual (Q2Qc 21) (Q2Qc 25) : DualOps QcField).
Proof. apply dual_ext; vm_compute; reflexivity. Qed.
(* quotient rule: d/dx (1/x) at x = 2 is -1/4 *)
Example C07_ex_quot :
  ((1 : DualOps QcField) / @dvar QcField (Q2Qc 2)) = (mkdual (Q2Qc (1 # 2)) (Q2Qc (-1 # 4)) : DualOps QcField).
Proof. apply dual_ext; vm_compute; reflexivity. Qed.
