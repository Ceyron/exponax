(* C10 — incompressibility is enforced and preserved.
   Models: Spectral/Operators.v (leray_mode, make_incompressible_mode; hand-written from nonlin_fun/_leray.py and
   _spectral.make_incompressible, exact-rational correspondence at every stored mode), Nonlin/Terms.v (projected_conv ends with
   leray), Gen/ETDRK.v (stage programs translated from the source).  d is the list of derivative-operator values at one mode; the statements
   bound the number of axes by 2 and 3, the proofs do not use it. *)
From Coq Require Import List.
From EXV Require Import Base.Scalar Base.FieldLemmas Base.Cplx Spectral.Operators Spectral.OperatorsProofs Spectral.RealSymbols
  Steppers.DivFree Gen.ETDRK.
Import ListNotations.
Local Open Scope fld_scope.

Theorem C10_leray_projection : forall (F : FieldT) (d u : list F), (2 <= length d <= 3)%nat -> length u = length d ->
  (lapm F d <> 0 -> divm F d (leray_mode F d u) = 0)
  /\ leray_mode F d (leray_mode F d u) = leray_mode F d u
  /\ (divm F d u = 0 -> leray_mode F d u = u)
  /\ (lapm F d = 0 -> leray_mode F d u = u).
Proof.
  intros F d u _ Hl. splits.
  - intros Hn. apply leray_div_free; assumption.
  - apply leray_idempotent; assumption.
  - intros Hz. apply leray_fixes_div_free; assumption.
  - intros Hz. apply leray_mean_mode; assumption.
Qed.
Print Assumptions C10_leray_projection.

(* make_incompressible and the Leray projection agree at every mode; the premise (the Laplace symbol vanishes only where d = 0)
   holds for d = i*kappa with real kappa over a formally real field, independently of the domain extent (C10_laplace_symbol_premise);
   length u = length d is not used by the proof either *)
Theorem C10_make_incompressible_is_leray : forall (F : FieldT) (d u : list F), (2 <= length d <= 3)%nat -> length u = length d ->
  (lapm F d = 0 -> Forall (fun x => x = 0) d) -> make_incompressible_mode F d u = leray_mode F d u.
Proof. intros F d u _ _. apply make_incompressible_is_leray. Qed.
Print Assumptions C10_make_incompressible_is_leray.

Theorem C10_laplace_symbol_premise : forall (F : FieldT), FormallyRealL F -> forall kap : list F,
  lapm (COps F) (dreal F kap) = @o0 (COps F) -> Forall (fun x => x = @o0 (COps F)) (dreal F kap).
Proof. intros F FR kap. apply lap_zero_real. exact FR. Qed.
Print Assumptions C10_laplace_symbol_premise.

(* every ETDRK order maps divergence-free states to divergence-free states when the nonlinear term is divergence free for every
   input (it ends with the Leray projection) and the propagators/coefficients are the same for all channels *)
Theorem C10_steppers_preserve_div_free : forall (F : FieldT) (M : Type) (d : nat -> M -> F) (N : (nat * M -> F) -> (nat * M -> F)),
  (forall v k, div3 F M d (N v) k = 0) ->
  forall (E Eh c1 c2 c3 c4 c5 c6 : nat * M -> F) (E0 Eh0 g1 g2 g3 g4 g5 g6 : M -> F),
  (forall c k, E (c, k) = E0 k) -> (forall c k, Eh (c, k) = Eh0 k) ->
  (forall c k, c1 (c, k) = g1 k) -> (forall c k, c2 (c, k) = g2 k) -> (forall c k, c3 (c, k) = g3 k) ->
  (forall c k, c4 (c, k) = g4 k) -> (forall c k, c5 (c, k) = g5 k) -> (forall c k, c6 (c, k) = g6 k) ->
  forall u, (forall k, div3 F M d u k = 0) -> forall k,
    div3 F M d (etdrk0_step F E u) k = 0
    /\ div3 F M d (etdrk1_step F E c1 N u) k = 0
    /\ div3 F M d (etdrk2_step F E c1 c2 N u) k = 0
    /\ div3 F M d (etdrk3_step F E Eh c1 c2 c3 c4 c5 N u) k = 0
    /\ div3 F M d (etdrk4_step F E Eh c1 c2 c3 c4 c5 c6 N u) k = 0.
Proof.
  intros F M d N HN E Eh c1 c2 c3 c4 c5 c6 E0 Eh0 g1 g2 g3 g4 g5 g6 HE HEh H1 H2 H3 H4 H5 H6 u Hu k. splits.
  - eapply etdrk0_preserves; eassumption.
  - eapply etdrk1_preserves; eassumption.
  - eapply etdrk2_preserves; eassumption.
  - eapply etdrk3_preserves; eassumption.
  - eapply etdrk4_preserves; eassumption.
Qed.
Print Assumptions C10_steppers_preserve_div_free.

(* make_incompressible of the source (exponax/_spectral.py; the arithmetic between fft and ifft is re-translated on every run by
   harness/translate/linops.py -> Gen/OperatorsGen.v, together with build_laplace_operator which it calls) is the model's make_incompressible_mode at every
   mode, for every number of axes; with C10_make_incompressible_is_leray and C10_leray_projection the SOURCE text is divergence free *)
From EXV Require Import Gen.OperatorsGen Tie.IncompressibleTie.
Theorem C10_code_make_incompressible_is_model : forall (F : FieldT) (d u : list F),
  gen_make_incompressible F d u = make_incompressible_mode F d u
  /\ ((2 <= length d <= 3)%nat -> length u = length d -> (lapm F d = 0 -> Forall (fun x => x = 0) d) -> lapm F d <> 0 ->
      divm F d (gen_make_incompressible F d u) = 0).
Proof.
  intros F d u. split; [apply make_incompressible_tie|].
  intros _ Hl HR Hn. rewrite make_incompressible_tie, (make_incompressible_is_leray F d u HR).
  apply leray_div_free; assumption.
Qed.
Print Assumptions C10_code_make_incompressible_is_model.

(* ... and the SOURCE text of ProjectedConvection3d (Gen/NonlinFuns.v, harness/translate/nonlin.py, tied to the term model in Tie/NonlinTie.v)
   returns, for EVERY input state, mask and product operators, a field whose divergence vanishes at every mode with non-zero Laplace symbol:
   its last operation is the Leray projection, which is leray_mode mode by mode (Tie/LerayTie.v) *)
From EXV Require Import Nonlin.Conv Nonlin.Terms Gen.NonlinFuns Tie.NonlinTie Tie.LerayTie.
Theorem C10_code_projected_convection_is_divergence_free : forall (F : FieldT) (M : field F -> field F) (P2 : field F -> field F -> field F)
    (P3 : field F -> field F -> field F -> field F) (ii s ND : F) (us : list (field F)) (k : idx),
  lapm F (dvec F ii s k) <> 0 ->
  divm F (dvec F ii s k) (map (fun i => nth i (gen_projected_conv F M P2 P3 ii s 3 ND us) (fzero F) k) [0; 1; 2]%nat) = 0.
Proof.
  intros F M P2 P3 ii s ND us k Hn. cbn [map]. rewrite !projected_conv_tie.
  apply (leray_output_divergence_free F ii s (cross F P2 us (curl F ii s us)) k); [reflexivity | exact Hn].
Qed.
Print Assumptions C10_code_projected_convection_is_divergence_free.

Example C10_ex_rationals_formally_real : FormallyRealL QcField.
Proof. exact Qc_sum_sq_zero. Qed.
