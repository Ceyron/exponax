(* C03 — nonlinear terms equal the alias-free projection of the documented operator.
   Model: Nonlin/Conv.v, Nonlin/Terms.v (hand-written from exponax/nonlin_fun/*.py and the two reaction nonlinearities;
   tied to the code by the exact-rational correspondence over every term, D, N covering all residues mod 12, both fractions, and by
   C03_code_terms_are_model_terms: the terms are re-translated from the source on every run (harness/translate/nonlin.py -> Gen/NonlinFuns.v)
   and proved equal to the hand-written ones).
   Pseudo-spectral products on the N-grid are circular convolutions (convolution theorem, C03_convolution_theorem, per axis);
   the documented products of band-limited fields are linear convolutions.  All theorems are for every D, every N, every state. *)
From Coq Require Import ZArith List Lia.
From EXV Require Import Base.FieldLemmas Base.Scalar Layout.Freq Layout.FreqProofs DFT.DFT1 Nonlin.Conv Nonlin.ConvProofs Nonlin.Terms Nonlin.TermsProofs
  IC.Normalize DFT.DFTD DFT.BandLink Gen.NonlinFuns Tie.NonlinTie.
Import ListNotations.
Local Open Scope fld_scope.

(* the mask keeps |k| <= K(N) = floor(frac*(N/2)) - 1 and the default cutoffs resolve the aliases: 3K < N (2/3 rule), 4K < N (1/2 rule) *)
Theorem C03_cutoffs : forall N k : Z, (0 <= N)%Z ->
  (dealias_keeps 2 3 N k = true <-> (Z.abs k <= dealias_K 2 3 N)%Z)
  /\ (dealias_keeps 1 2 N k = true <-> (Z.abs k <= dealias_K 1 2 N)%Z)
  /\ (3 * dealias_K 2 3 N < N)%Z /\ (4 * dealias_K 1 2 N < N)%Z.
Proof.
  intros N k HN. splits.
  - apply dealias_keeps_iff. lia.
  - apply dealias_keeps_iff. lia.
  - apply cutoff_quadratic. exact HN.
  - apply cutoff_cubic. exact HN.
Qed.
Print Assumptions C03_cutoffs.

(* the cutoff of the dealiasing mask in the source (BaseNonlinearFun.__init__, re-translated on every run by harness/translate/dealias.py:
   floor(frac * ((N // 2 + 1) - 1)) - 1 with frac = p / q) IS the model's cutoff; the mask is the axis-separate low-pass mask (whose source is
   tied by C04_code_layout_is_model_layout), so mode k is kept iff |k_c| <= dealias_K on every axis *)
From EXV Require Import Gen.DealiasGen.
Theorem C03_code_cutoff_is_model_cutoff : forall p q N k : Z, (0 < q)%Z ->
  gen_dealias_cutoff p q N = dealias_K p q N
  /\ gen_dealias_mask_axis_separate = true
  /\ (dealias_keeps p q N k = true <-> (Z.abs k <= gen_dealias_cutoff p q N)%Z).
Proof.
  intros p q N k Hq.
  assert (E : gen_dealias_cutoff p q N = dealias_K p q N) by (unfold gen_dealias_cutoff, dealias_K; replace (N / 2 + 1 - 1)%Z with (N / 2)%Z by lia; reflexivity).
  splits; [exact E | reflexivity |]. rewrite E. apply dealias_keeps_iff. exact Hq.
Qed.
Print Assumptions C03_code_cutoff_is_model_cutoff.

(* physical-space multiplication on an n-point grid IS the circular convolution of the spectra (per axis) *)
Theorem C03_convolution_theorem : forall (F : FieldT) (n : nat) (w w' : F),
  (0 < n)%nat -> fpow w n = 1 -> (forall m, (0 < m < n)%nat -> fpow w m <> 1) -> w * w' = 1 ->
  forall (u v : nat -> F) (k : nat), (k < n)%nat ->
  dft n w (fun j => u j * v j) k = cconv n (dft n w u) (dft n w v) k / fz (Z.of_nat n).
Proof. intros F n w w' Hn H1 H2 H3 u v k Hk. apply (dft_convolution F n w w'); assumption. Qed.
Print Assumptions C03_convolution_theorem.

(* ... and in every dimension D: for the D-fold iterate of the 1-D transform (what rfftn / irfftn compute), the transform of a pointwise
   product on the n^D grid is n^-D times the D-dimensional circular convolution of the transforms - the contract behind prod2 / prod3 *)
Theorem C03_convolution_theorem_any_dimension : forall (F : FieldT) (n : nat) (w w' : F),
  (0 < n)%nat -> fpow w n = 1 -> (forall m, (0 < m < n)%nat -> fpow w m <> 1) -> w * w' = 1 ->
  forall (D : nat) (u v : list nat -> F) (k : list nat), length k = D -> Forall (fun b => (b < n)%nat) k ->
  dftD n D w (fun j => u j * v j) k = cconvD n D (dftD n D w u) (dftD n D w v) k / npts F D n.
Proof. intros F n w w' Hn H1 H2 H3 D u v k Hl Hk. apply (dftD_convolution F n w w'); try assumption. split; assumption. Qed.
Print Assumptions C03_convolution_theorem_any_dimension.

(* the chain from the FFT contract to the product model: for band-masked spectra U, V on signed wavenumbers, u = irfftn U, v = irfftn V
   (D-fold inverse transform on the n^D grid), the band-restricted transform of the pointwise product u v at stored index k is the
   model's prod2 U V at the signed wavenumber of k - every D, every n = N with a primitive root, every cutoff with 2K < N *)
Theorem C03_fft_product_is_the_model_product : forall (F : FieldT) (n : nat) (Kc : Z) (w w' : F),
  (0 < n)%nat -> (0 <= Kc)%Z -> (2 * Kc < Z.of_nat n)%Z ->
  fpow w n = 1 -> (forall m, (0 < m < n)%nat -> fpow w m <> 1) -> w * w' = 1 ->
  forall (D : nat) (U V : field F) (k : list nat), length k = D -> Forall (fun b => (b < n)%nat) k ->
  let u := idftI n D w' (on_grid F n Kc U) in
  let v := idftI n D w' (on_grid F n Kc V) in
  (if in_band Kc (sgn n k) then dftD n D w (fun j => u j * v j) k else 0) = prod2 F D (Z.of_nat n) Kc U V (sgn n k).
Proof. intros F n Kc w w' Hn HK H2K H1 H2 H3 D U V k Hl Hk. apply (fft_product_is_prod2 F n Hn Kc H2K w w' H1 H2 H3). split; assumption. Qed.
Print Assumptions C03_fft_product_is_the_model_product.

(* with the cutoff of the code, the pseudo-spectral product equals the alias-free product on the retained band
   and vanishes outside it: quadratic with 3K < N, cubic with 4K < N *)
Theorem C03_products_alias_free : forall (F : FieldT) (D : nat) (N Kc : Z) (U V W : field F) (k : idx),
  (0 < N)%Z -> (0 <= Kc)%Z ->
  ((3 * Kc < N)%Z -> prod2 F D N Kc U V k = prod2L F D N Kc U V k)
  /\ ((4 * Kc < N)%Z -> prod3 F D N Kc U V W k = prod3L F D N Kc U V W k)
  /\ (in_band Kc k = false -> prod2 F D N Kc U V k = 0 /\ prod3 F D N Kc U V W k = 0).
Proof.
  intros F D N Kc U V W k HN HK. splits.
  - intros H. apply prod2_alias_free; assumption.
  - intros H. apply prod3_alias_free; assumption.
  - intros H. apply (prod_out_of_band F D N Kc U V W k H).
Qed.
Print Assumptions C03_products_alias_free.

(* every built-in term evaluated by the code (circular products) equals the documented operator (alias-free products of the
   band-truncated state), coefficient by coefficient, for every state; quadratic terms need 3K < N, cubic ones 4K < N *)
Theorem C03_quadratic_terms_are_documented : forall (F : FieldT) (D : nat) (N Kc : Z) (ii s b : F),
  (0 < N)%Z -> (0 <= Kc)%Z -> (3 * Kc < N)%Z ->
  let P := prod2 F D N Kc in let PL := prod2L F D N Kc in
  forall (u : field F) (us : list (field F)) (zf : bool) (i : nat) (k : idx),
    nth i (conv_mc_cons F P ii s D b us) (fzero F) k = nth i (conv_mc_cons F PL ii s D b us) (fzero F) k
    /\ nth i (conv_mc_noncons F P ii s D b us) (fzero F) k = nth i (conv_mc_noncons F PL ii s D b us) (fzero F) k
    /\ conv_sc_cons F P ii s D b u k = conv_sc_cons F PL ii s D b u k
    /\ conv_sc_noncons F P ii s D b u k = conv_sc_noncons F PL ii s D b u k
    /\ gradient_norm F P ii s D b zf u k = gradient_norm F PL ii s D b zf u k
    /\ vorticity_conv F P ii s D b u k = vorticity_conv F PL ii s D b u k
    /\ nth i (projected_conv F P ii s D us) (fzero F) k = nth i (projected_conv F PL ii s D us) (fzero F) k.
Proof.
  intros F D N Kc ii s b HN HK H3 P PL u us zf i k.
  assert (H2 : forall U V x, P U V x = PL U V x) by (intros; apply prod2_alias_free; assumption).
  splits.
  - apply conv_mc_cons_lift; exact H2.
  - apply conv_mc_noncons_lift; exact H2.
  - apply conv_sc_cons_lift; exact H2.
  - apply conv_sc_noncons_lift; exact H2.
  - apply gradient_norm_lift; exact H2.
  - apply vorticity_conv_lift; exact H2.
  - apply projected_conv_lift; exact H2.
Qed.
Print Assumptions C03_quadratic_terms_are_documented.

Theorem C03_cubic_terms_are_documented : forall (F : FieldT) (D : nat) (N Kc : Z) (ii s ND : F),
  (0 < N)%Z -> (0 <= Kc)%Z -> (4 * Kc < N)%Z ->
  let M := msk F Kc in
  let P2 := prod2 F D N Kc in let P2L := prod2L F D N Kc in let P3 := prod3 F D N Kc in let P3L := prod3L F D N Kc in
  forall (u v : field F) (c0 c1 c2 c3 b0 b1 b2 sc f kr : F) (zf : bool) (i : nat) (k : idx),
    polynomial F M P2 P3 ND c0 c1 c2 c3 u k = polynomial F M P2L P3L ND c0 c1 c2 c3 u k
    /\ general_nonlinear F M P2 P3 ii s D ND b0 b1 b2 zf u k = general_nonlinear F M P2L P3L ii s D ND b0 b1 b2 zf u k
    /\ cahn_hilliard F P3 ii s D sc u k = cahn_hilliard F P3L ii s D sc u k
    /\ nth i (gray_scott F M P3 ND f kr u v) (fzero F) k = nth i (gray_scott F M P3L ND f kr u v) (fzero F) k.
Proof.
  intros F D N Kc ii s ND HN HK H4 M P2 P2L P3 P3L u v c0 c1 c2 c3 b0 b1 b2 sc f kr zf i k.
  assert (H2 : forall U V x, P2 U V x = P2L U V x) by (intros; apply prod2_alias_free; try assumption; lia).
  assert (H3 : forall U V W x, P3 U V W x = P3L U V W x) by (intros; apply prod3_alias_free; assumption).
  splits.
  - apply polynomial_lift; assumption.
  - apply general_nonlinear_lift; assumption.
  - apply cahn_hilliard_lift; assumption.
  - apply gray_scott_lift; assumption.
Qed.
Print Assumptions C03_cubic_terms_are_documented.

(* the model terms ARE the code: every __call__ under exponax/nonlin_fun and the private nonlinear functions of the reaction steppers,
   re-translated from the source on every run (Gen/NonlinFuns.v, same vocabulary M / P2 / P3 / dc as Nonlin/Terms.v, the mask applied
   where the code applies it, factors and sums in the order of the code), equal the hand-written terms of Nonlin/Terms.v for every
   coefficient, every flag value, every state and every mode k, with M, P2, P3 the operators of Nonlin/Conv.v (the laws of the operators
   that the equalities need are proved in Nonlin/ConvProofs.v, and msk_mean, which mentions generated text, in Tie/NonlinTie.v).
   Premises: the mask keeps the mean mode (0 <= K); for the multi-channel conservative convection only (u[None, :] * u[:, None] lists
   the factors in the other order than the model) the commutativity of the circular product, proved for modes k with one entry per
   axis and 2K < N.  Kolmogorov variants: the term plus the stored forcing array.
   BelousovZhabotinsky (not exported, no term in Nonlin/Terms.v): against the hand-written term of Tie/NonlinTie.v. *)
Theorem C03_code_terms_are_model_terms : forall (F : FieldT) (D : nat) (N Kc : Z) (ii s ND : F), (0 <= Kc)%Z ->
  let M := msk F Kc in let P2 := prod2 F D N Kc in let P3 := prod3 F D N Kc in
  let Z := fzero F in
  forall (b b0 b1 b2 c0 c1 c2 c3 f kr : F) (zf : bool) (u inj : field F) (us injs : list (field F)) (i : nat) (k : idx),
    gen_zero F M P2 P3 ii s D ND u k = Z k
    /\ gen_polynomial_4 F M P2 P3 ii s D ND c0 c1 c2 c3 u k = polynomial F M P2 P3 ND c0 c1 c2 c3 u k
    /\ gen_polynomial_3 F M P2 P3 ii s D ND c0 c1 c2 u k = polynomial F M P2 P3 ND c0 c1 c2 0 u k
    /\ gen_polynomial_2 F M P2 P3 ii s D ND c0 c1 u k = polynomial F M P2 P3 ND c0 c1 0 0 u k
    /\ nth 0 (gen_convection F M P2 P3 ii s D ND b true true us) Z k = conv_sc_cons F P2 ii s D b (nth 0 us Z) k
    /\ nth 0 (gen_convection F M P2 P3 ii s D ND b true false us) Z k = conv_sc_noncons F P2 ii s D b (nth 0 us Z) k
    /\ ((0 < N)%Z -> (2 * Kc < N)%Z -> length k = D ->
        nth i (gen_convection F M P2 P3 ii s D ND b false true us) Z k = nth i (conv_mc_cons F P2 ii s D b us) Z k)
    /\ nth i (gen_convection F M P2 P3 ii s D ND b false false us) Z k = nth i (conv_mc_noncons F P2 ii s D b us) Z k
    /\ gen_gradient_norm F M P2 P3 ii s D ND b zf u k = gradient_norm F P2 ii s D b zf u k
    /\ nth 0 (gen_general_nonlinear F M P2 P3 ii s D ND [b0; b1; b2] zf [u]) Z k = general_nonlinear F M P2 P3 ii s D ND b0 b1 b2 zf u k
    /\ gen_vorticity_conv F M P2 P3 ii s D ND b u k = vorticity_conv F P2 ii s D b u k
    /\ gen_vorticity_conv_kolmogorov F M P2 P3 ii s D ND b inj u k = vorticity_conv F P2 ii s D b u k + inj k
    /\ nth i (gen_leray F M P2 P3 ii s D ND us) Z k = nth i (leray F ii s D us) Z k
    /\ nth i (gen_projected_conv F M P2 P3 ii s D ND us) Z k = nth i (projected_conv F P2 ii s D us) Z k
    /\ ((i < 3)%nat -> nth i (gen_projected_conv_kolmogorov F M P2 P3 ii s D ND injs us) Z k = nth i (projected_conv F P2 ii s D us) Z k + nth i injs Z k)
    /\ nth 0 (gen_cahn_hilliard F M P2 P3 ii s D ND b us) Z k = cahn_hilliard F P3 ii s D b (nth 0 us Z) k
    /\ nth i (gen_gray_scott F M P2 P3 ii s D ND f kr us) Z k = nth i (gray_scott F M P3 ND f kr (nth 0 us Z) (nth 1 us Z)) Z k
    /\ nth i (gen_belousov_zhabotinsky F M P2 P3 ii s D ND us) Z k
       = nth i (belousov_zhabotinsky F M P2 (nth 0 us Z) (nth 1 us Z) (nth 2 us Z)) Z k.
Proof.
  intros F D N Kc ii s ND HK M P2 P3 Z b b0 b1 b2 c0 c1 c2 c3 f kr zf u inj us injs i k.
  assert (Lext : forall a a' b b' k, (forall x, a x = a' x) -> (forall x, b x = b' x) -> P2 a b k = P2 a' b' k) by (intros; apply prod2_ext; assumption).
  assert (Lidem : forall a k, M (M a) k = M a k) by (intros; apply msk_idem).
  assert (Lmean : forall c k, M (gen_const_hat F M P2 P3 ii s D ND c) k = gen_const_hat F M P2 P3 ii s D ND c k) by (intros; apply msk_mean; exact HK).
  assert (L2M : forall a b k, P2 (M a) (M b) k = P2 a b k) by (intros; apply prod2_msk).
  assert (L3M : forall a b c k, P3 (M a) (M b) (M c) k = P3 a b c k) by (intros; apply prod3_msk).
  splits.
  - apply zero_tie.
  - apply polynomial_4_tie; assumption.
  - apply polynomial_3_tie; assumption.
  - apply polynomial_2_tie; assumption.
  - apply convection_sc_cons_tie.
  - apply convection_sc_noncons_tie.
  - intros HN H2 Hk. apply convection_mc_cons_tie. intros a c. apply prod2_comm; assumption.
  - apply convection_mc_noncons_tie.
  - apply gradient_norm_tie.
  - apply general_nonlinear_tie; assumption.
  - apply vorticity_conv_tie; assumption.
  - apply vorticity_conv_kolmogorov_tie; assumption.
  - apply leray_tie.
  - apply projected_conv_tie.
  - intros Hi. apply projected_conv_kolmogorov_tie. exact Hi.
  - apply cahn_hilliard_tie; assumption.
  - apply gray_scott_tie; assumption.
  - apply belousov_zhabotinsky_tie; assumption.
Qed.
Print Assumptions C03_code_terms_are_model_terms.

(* non-vacuity: N = 12, K = K(12, 2/3) = 3 satisfies 3K < N; N = 12, K(12, 1/2) = 2 satisfies 4K < N *)
Example C03_ex : dealias_K 2 3 12 = 3%Z /\ dealias_K 1 2 12 = 2%Z /\ (3 * 3 < 12)%Z /\ (4 * 2 < 12)%Z.
Proof. repeat split; reflexivity. Qed.
