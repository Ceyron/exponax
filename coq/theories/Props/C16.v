(* C16 — error metrics are consistent quadratures of the documented norms.
   Model: Metrics/Metrics.v (hand-written from exponax/metrics/{_spatial,_fourier,_derivative,_correlation,_utils}.py; the arrays it uses
   are the layout functions of Layout/Freq.v (tied by C04) and the rejection guards of Gen/Guards.v (translated from the source on every run)).
   Tie: exact-rational correspondence of MSE/nMSE/sMSE, fourier_MSE/fourier_nMSE (bands, derivative orders), H1_MSE/H1_nMSE, correlation^2,
   mean_metric, the scaling array and the band mask (harness/props/c16.py).
   Scope of the model: inner exponent 2; the outer exponent is an arbitrary function [root] (identity = MSE-type; a square root = RMSE-type,
   whose laws appear as premises).  MODELLING GAP: the absolute 1e-5 floor that fourier_aggregator applies to the rfftn coefficients is not in the
   model; all statements about Fourier metrics are about spectra that the floor leaves untouched.
   F is any field of characteristic 0 (the reals of the implementation); order-dependent statements take an order [le] with the ordered-field
   laws as a premise ([OrderedField], satisfiable: C16_ex_ordered_Qc). *)
From Coq Require Import QArith Qcanon List Lia.
From EXV Require Import Base.Scalar Base.FieldLemmas Base.Cplx Layout.Freq Gen.Guards DFT.DFT1 Metrics.Metrics Metrics.MetricsProofs
  IC.Normalize DFT.DFTD Metrics.ParsevalRealD.
Import ListNotations.
Local Open Scope fld_scope.


(* the mask built from the two low-pass masks is the documented box: low <= max_i |k_i| <= high (None = 0 resp. N/2+1) *)
Theorem C16_band_mask_is_box : forall (D : nat) (N : Z) (low high : option Z) (idx : list Z),
  (1 <= D)%nat -> (low <> None \/ high <> None) ->
  (band_mask D N low high idx = true <-> (band_lo low <= kinf (wnvec D N idx) <= band_hi N high)%Z).
Proof. exact band_mask_box. Qed.
Print Assumptions C16_band_mask_is_box.

(* consecutive bands [lo, h0], [h0+1, h1], ..., [.., h_m] (each l_{i+1} = h_i + 1; empty bands allowed) add up to the band [lo, h_m]:
   for every derivative order, every spectrum, the un-rooted Fourier aggregate (fourier_MSE per channel) *)
Theorem C16_band_additive : forall (F : FieldT) (D : nat) (N : Z) (L tau : F) (dord : option nat) (spec : list (cx F))
  (lo h0 : Z) (hs : list Z), (1 <= D)%nat -> chain lo (h0 :: hs) ->
  fsum (map (fun b => fourier_agg F (idK F) D N L tau (Some (fst b)) (Some (snd b)) dord spec) (consecutive lo (h0 :: hs)))
  = fourier_agg F (idK F) D N L tau (Some lo) (Some (last hs h0)) dord spec.
Proof. intros. apply fourier_agg_band_partition; assumption. Qed.
Print Assumptions C16_band_additive.

(* ... and a band that contains [0, N/2] is the whole spectrum: bands covering everything add up to the un-banded metric *)
Theorem C16_bands_cover_everything : forall (F : FieldT) (D : nat) (N : Z) (L tau : F) (dord : option nat) (spec : list (cx F))
  (h0 : Z) (hs : list Z), (1 <= D)%nat -> (0 < N)%Z -> chain 0%Z (h0 :: hs) -> (N / 2 <= last hs h0)%Z ->
  fsum (map (fun b => fourier_agg F (idK F) D N L tau (Some (fst b)) (Some (snd b)) dord spec) (consecutive 0%Z (h0 :: hs)))
  = fourier_agg F (idK F) D N L tau None None dord spec.
Proof.
  intros F D N L tau dord spec h0 hs HD HN Hc Hl.
  rewrite (fourier_agg_band_partition F D N L tau dord spec HD hs 0%Z h0 Hc).
  apply fourier_agg_full_band; [exact HD | exact HN | lia | exact Hl].
Qed.
Print Assumptions C16_bands_cover_everything.

(* channels: the metric of concatenated channel lists is the sum of the metrics of the parts (every mode, every outer exponent);
   [oadd2] adds the values and propagates a rejection *)
Theorem C16_channel_additive : forall (F : FieldT) (root : F -> F) (D : nat) (N : Z) (L tau : F) (low high : option Z) (dord : option nat) (mode : Z),
  (forall (u1 u2 r1 r2 : list (list F)), length u1 = length r1 ->
     spatial_norm F root D N L mode (u1 ++ u2) (Some (r1 ++ r2))
     = oadd2 F (spatial_norm F root D N L mode u1 (Some r1)) (spatial_norm F root D N L mode u2 (Some r2)))
  /\ (forall (u1 u2 : list (list F)),
     spatial_norm F root D N L mode (u1 ++ u2) None
     = oadd2 F (spatial_norm F root D N L mode u1 None) (spatial_norm F root D N L mode u2 None))
  /\ (forall (U1 U2 R1 R2 : list (list (cx F))), length U1 = length R1 ->
     fourier_norm F root D N L tau low high dord mode (U1 ++ U2) (Some (R1 ++ R2))
     = oadd2 F (fourier_norm F root D N L tau low high dord mode U1 (Some R1)) (fourier_norm F root D N L tau low high dord mode U2 (Some R2)))
  /\ (forall (U1 U2 : list (list (cx F))),
     fourier_norm F root D N L tau low high dord mode (U1 ++ U2) None
     = oadd2 F (fourier_norm F root D N L tau low high dord mode U1 None) (fourier_norm F root D N L tau low high dord mode U2 None)).
Proof.
  intros. repeat split; intros.
  - apply norm_gen_app; assumption.
  - apply norm_gen_app_noref.
  - apply norm_gen_app; assumption.
  - apply norm_gen_app_noref.
Qed.
Print Assumptions C16_channel_additive.

(* dependence on the domain extent: the un-rooted p = 2 aggregates scale with L^D; a derivative of order m contributes (1/L)^(2m) *)
Theorem C16_L_scaling : forall (F : FieldT) (D : nat) (N : Z) (L L' tau : F), L <> 0 -> L' <> 0 -> @fz F N <> 0 ->
  (forall u : list F, spatial_agg F (idK F) D N L u = fpow (L / L') D * spatial_agg F (idK F) D N L' u)
  /\ (forall low high dord (spec : list (cx F)),
      fourier_agg F (idK F) D N L tau low high dord spec
      = fpow (L / L') D * fpow (L' / L) (2 * match dord with None => 0 | Some m => m end)
        * fourier_agg F (idK F) D N L' tau low high dord spec).
Proof.
  intros F D N L L' tau HL HL' HN. split; intros.
  - apply spatial_agg_L_scaling; assumption.
  - apply fourier_agg_L_scaling; assumption.
Qed.
Print Assumptions C16_L_scaling.

Definition scale_state (F : FieldT) (c : F) (u : list (list F)) : list (list F) := map (map (omul c)) u.
Definition scale_spec (F : FieldT) (c : F) (U : list (list (cx F))) : list (list (cx F)) := map (map (cscal c)) U.

(* absolute mode: scaling both states by c multiplies the metric by a, where a is how [root] responds to the factor c^2:
   a = c^2 for the un-rooted quantities (MSE, fourier_MSE: degree 2), a = |c| for a square root (RMSE-type: degree 1).
   H1_* is the sum of two such metrics and inherits the law. *)
Theorem C16_homogeneous_absolute : forall (F : FieldT) (root : F -> F) (c a : F), (forall x, root (c * c * x) = a * root x) ->
  forall (D : nat) (N : Z) (L tau : F) (low high : option Z) (dord : option nat),
  (forall u r, spatial_norm F root D N L 0 (scale_state F c u) (Some (scale_state F c r)) = option_map (omul a) (spatial_norm F root D N L 0 u (Some r)))
  /\ (forall u, spatial_norm F root D N L 0 (scale_state F c u) None = option_map (omul a) (spatial_norm F root D N L 0 u None))
  /\ (forall U R, fourier_norm F root D N L tau low high dord 0 (scale_spec F c U) (Some (scale_spec F c R))
                  = option_map (omul a) (fourier_norm F root D N L tau low high dord 0 U (Some R)))
  /\ (forall U, fourier_norm F root D N L tau low high dord 0 (scale_spec F c U) None
                = option_map (omul a) (fourier_norm F root D N L tau low high dord 0 U None)).
Proof.
  intros F root c a Hr D N L tau low high dord.
  repeat split; intros.
  - apply norm_gen_scal_absolute; [intros; apply spatial_agg_scal; exact Hr | intros; apply vsub_scal | intros; reflexivity].
  - apply norm_gen_scal_noref. intros; apply spatial_agg_scal; exact Hr.
  - apply norm_gen_scal_absolute; [intros; apply fourier_agg_scal; exact Hr | intros; apply ssub_scal | intros; reflexivity].
  - apply norm_gen_scal_noref. intros; apply fourier_agg_scal; exact Hr.
Qed.
Print Assumptions C16_homogeneous_absolute.

Theorem C16_homogeneous_MSE : forall (F : FieldT) (c : F) (D : nat) (N : Z) (L : F) u r,
  MSE F D N L (scale_state F c u) (Some (scale_state F c r)) = option_map (omul (c * c)) (MSE F D N L u (Some r)).
Proof.
  intros. unfold MSE.
  destruct (C16_homogeneous_absolute F (idK F) c (c * c) (fun x => eq_refl) D N L L None None None) as [H _]. apply H.
Qed.
Print Assumptions C16_homogeneous_MSE.

(* normalized and symmetric modes are scale-free (c <> 0, non-vanishing denominators) *)
Theorem C16_scale_free : forall (F : FieldT) (root : F -> F) (c a : F), (forall x, root (c * c * x) = a * root x) -> a <> 0 ->
  forall (D : nat) (N : Z) (L tau : F) (low high : option Z) (dord : option nat),
  (forall u r, (forall p, In p (combine u r) -> spatial_agg F root D N L (snd p) <> 0) ->
     spatial_norm F root D N L 1 (scale_state F c u) (Some (scale_state F c r)) = spatial_norm F root D N L 1 u (Some r))
  /\ (forall u r, (forall p, In p (combine u r) -> spatial_agg F root D N L (fst p) + spatial_agg F root D N L (snd p) <> 0) ->
     spatial_norm F root D N L 2 (scale_state F c u) (Some (scale_state F c r)) = spatial_norm F root D N L 2 u (Some r))
  /\ (forall U R, (forall p, In p (combine U R) -> fourier_agg F root D N L tau low high dord (snd p) <> 0) ->
     fourier_norm F root D N L tau low high dord 1 (scale_spec F c U) (Some (scale_spec F c R))
     = fourier_norm F root D N L tau low high dord 1 U (Some R)).
Proof.
  intros F root c a Hr Ha D N L tau low high dord.
  repeat split; intros.
  - apply (norm_gen_scal_invariant F _ _ _ (map (omul c)) a); [intros; apply spatial_agg_scal; exact Hr | intros; apply vsub_scal|].
    intros p Hp. apply comb_spatial_normalized; [exact Ha | apply H; exact Hp].
  - apply (norm_gen_scal_invariant F _ _ _ (map (omul c)) a); [intros; apply spatial_agg_scal; exact Hr | intros; apply vsub_scal|].
    intros p Hp. apply comb_spatial_symmetric; [exact Ha | apply H; exact Hp].
  - apply (norm_gen_scal_invariant F _ _ _ (map (cscal c)) a); [intros; apply fourier_agg_scal; exact Hr | intros; apply ssub_scal|].
    intros p Hp. apply comb_fourier_normalized; [exact Ha | apply H; exact Hp].
Qed.
Print Assumptions C16_scale_free.

(* zero for identical inputs: every mode, every outer exponent with root 0 = 0 *)
Theorem C16_zero_for_identical_inputs : forall (F : FieldT) (root : F -> F), root 0 = 0 ->
  forall (D : nat) (N : Z) (L tau : F) (low high : option Z) (dord : option nat) (mode : Z),
  (forall u, spatial_norm F root D N L mode u (Some u) = Some 0)
  /\ (forall U, fourier_norm F root D N L tau low high dord mode U (Some U) = Some 0)
  /\ (forall U, H1_norm F root D N L tau low high mode U (Some U) = Some 0).
Proof.
  intros F root H0 D N L tau low high dord mode.
  assert (HF : forall dord U, fourier_norm F root D N L tau low high dord mode U (Some U) = Some 0).
  { intros d U. apply norm_gen_identical; [intros x; apply fourier_agg_self; exact H0 | intros; apply comb_fourier_zero]. }
  repeat split; intros.
  - apply norm_gen_identical; [intros x; apply spatial_agg_self; exact H0 | intros; apply comb_spatial_zero].
  - apply HF.
  - unfold H1_norm. rewrite !HF. cbn [oadd2]. apply f_equal. apply (F_R (fth F)).(Radd_0_l).
Qed.
Print Assumptions C16_zero_for_identical_inputs.

(* symmetric under exchanging prediction and reference: the absolute and the symmetric mode (not the normalized one) *)
Theorem C16_symmetric : forall (F : FieldT) (root : F -> F) (D : nat) (N : Z) (L tau : F) (low high : option Z) (dord : option nat) (mode : Z),
  (mode =? 1)%Z = false ->
  (forall u r, spatial_norm F root D N L mode u (Some r) = spatial_norm F root D N L mode r (Some u))
  /\ (forall U R, fourier_norm F root D N L tau low high dord mode U (Some R) = fourier_norm F root D N L tau low high dord mode R (Some U)).
Proof.
  intros F root D N L tau low high dord mode Hm. split; intros.
  - apply norm_gen_symmetric; [intros; apply spatial_agg_sym | intros; apply comb_spatial_swap; exact Hm].
  - apply norm_gen_symmetric; [intros; apply fourier_agg_sym | intros; unfold combine_fourier; rewrite Hm; reflexivity].
Qed.
Print Assumptions C16_symmetric.

(* positive otherwise (ordered field, L/N > 0): the mean-square aggregate of two different states of equal length is > 0 *)
Theorem C16_positive : forall (F : FieldT) (le : F -> F -> Prop), OrderedField F le ->
  forall (D : nat) (N : Z) (L : F) (u r : list F), le 0 (L / fz N) -> L / fz N <> 0 -> length u = length r -> u <> r ->
  le 0 (spatial_agg F (idK F) D N L (vsub F u r)) /\ spatial_agg F (idK F) D N L (vsub F u r) <> 0.
Proof. intros F le OF D N L u r H1 H2 H3 H4. exact (spatial_agg_positive F le OF D N L u r H1 H2 H3 H4). Qed.
Print Assumptions C16_positive.

(* option validation: the call is rejected exactly when a mode that needs a reference is used without one (Gen/Guards.v) *)
Theorem C16_option_validation : forall (F : FieldT) (root : F -> F) (D : nat) (N : Z) (L tau : F) low high dord (mode : Z) u U,
  (forall r, spatial_norm F root D N L mode u (Some r) <> None)
  /\ (spatial_norm F root D N L mode u None = None <-> (mode = 1 \/ mode = 2)%Z)
  /\ (forall R, fourier_norm F root D N L tau low high dord mode U (Some R) <> None)
  /\ (fourier_norm F root D N L tau low high dord mode U None = None <-> mode = 1%Z).
Proof.
  intros. repeat split.
  - discriminate.
  - unfold spatial_norm, norm_gen, spatial_norm_raises. cbn [is_none andb orb].
    destruct (Z.eqb_spec mode 1) as [E|E]; cbn [negb andb orb]; [intros _; left; exact E|].
    destruct (Z.eqb_spec mode 2) as [E2|E2]; [intros _; right; exact E2 | discriminate].
  - intros [->| ->]; reflexivity.
  - discriminate.
  - unfold fourier_norm, norm_gen, fourier_norm_raises. cbn [is_none andb].
    destruct (Z.eqb_spec mode 1) as [E|E]; [intros _; exact E | discriminate].
  - intros ->. reflexivity.
Qed.
Print Assumptions C16_option_validation.


(* conjugation-free Parseval identity in any field with a primitive n-th root of unity w (w' its inverse) *)
Theorem C16_parseval_bilinear : forall (F : FieldT) (n : nat) (w w' : F), (0 < n)%nat -> fpow w n = 1 ->
  (forall m, (0 < m < n)%nat -> fpow w m <> 1) -> w * w' = 1 ->
  forall u v : nat -> F, bsum n (fun k => dft n w u k * dft n w' v k) = fz (Z.of_nat n) * bsum n (fun j => u j * v j).
Proof. exact parseval_bilinear. Qed.
Print Assumptions C16_parseval_bilinear.

(* ... and in every dimension D, for the D-fold iterate of the 1-D transform (the rfftn contract): sum over the full n^D spectrum *)
Theorem C16_parseval_bilinear_any_dimension : forall (F : FieldT) (n : nat) (w w' : F), (0 < n)%nat -> fpow w n = 1 ->
  (forall m, (0 < m < n)%nat -> fpow w m <> 1) -> w * w' = 1 ->
  forall (D : nat) (u v : list nat -> F),
  sumD F D n (fun k => dftD n D w u k * dftD n D w' v k) = npts F D n * sumD F D n (fun j => u j * v j).
Proof. intros F n w w' Hn H1 H2 H3 D u v. apply (parseval_bilinear_D F n w w'); assumption. Qed.
Print Assumptions C16_parseval_bilinear_any_dimension.

(* real sequences: over a formally real field F, with a primitive n-th root w of modulus 1 in F[i], the half spectrum (k = 0..n/2) weighted with
   the multiplicities 1 (k = 0; k = n/2 for even n) and 2 (all other k, INCLUDING k = (n-1)/2 for odd n) carries n times the energy *)
Theorem C16_parseval_half_spectrum : forall (F : FieldT) (FR : FormallyReal F) (n : nat) (w : cx F), (0 < n)%nat ->
  @fpow (CField FR) w n = c1 F -> (forall m, (0 < m < n)%nat -> @fpow (CField FR) w m <> c1 F) -> cmul w (cconj w) = c1 F ->
  forall u : nat -> F,
  bsum (n / 2 + 1) (fun k => half_mult F n k * cnorm2 (rdft F n w u k)) = fz (Z.of_nat n) * bsum n (fun j => u j * u j).
Proof. intros F FR n w Hn H1 H2 H3 u. exact (parseval_half_spectrum F FR n w Hn H1 H2 H3 u). Qed.
Print Assumptions C16_parseval_half_spectrum.

(* real fields in every dimension: the stored half spectrum of the (D+1)-dimensional transform - EVERY leading-axis index, last-axis index
   0..n/2, multiplicity 1 where the last-axis wavenumber is self-conjugate (0; n/2 for even n) and 2 elsewhere - carries n^(D+1) times the energy *)
Theorem C16_parseval_half_spectrum_any_dimension : forall (F : FieldT) (FR : FormallyReal F) (n : nat) (w : cx F), (0 < n)%nat ->
  @fpow (CField FR) w n = c1 F -> (forall m, (0 < m < n)%nat -> @fpow (CField FR) w m <> c1 F) -> cmul w (cconj w) = c1 F ->
  forall (D : nat) (u : list nat -> F),
  sumD F D n (fun lead => bsum (n / 2 + 1) (fun b => half_mult F n b * cnorm2 (rdftD F n w (S D) u (lead ++ [b]))))
  = npts F (S D) n * sumD F (S D) n (fun j => u j * u j).
Proof. intros F FR n w Hn H1 H2 H3 D u. exact (parseval_half_spectrum_D F FR n w Hn H1 H2 H3 D u). Qed.
Print Assumptions C16_parseval_half_spectrum_any_dimension.

(* NOT PROVED in full generality:
     forall D N (u : state on the N^D grid),  fourier_agg root D N L tau None None None (rfftn u) = spatial_agg root D N L u.
   Proved below for D = 1, every n >= 1 (odd and even), every outer exponent, for the model's own weights (scaling_recon), index set
   (half_indices) and volume factor.  For D >= 2 the identity over the full spectrum (C16_parseval_bilinear_any_dimension) and its folding onto
   the stored half with the multiplicities 1 / 2 (C16_parseval_half_spectrum_any_dimension) are proved; what is missing is only the
   identification of the model's own index list and weights (half_indices, N^D / scaling_recon) with that half-spectrum sum.  The witness
   oracle checks the D = 2, 3 cases on the implementation against a full-spectrum quadrature. *)
Theorem C16_parseval_partial : forall (F : FieldT) (FR : FormallyReal F) (n : nat) (w : cx F), (0 < n)%nat ->
  @fpow (CField FR) w n = c1 F -> (forall m, (0 < m < n)%nat -> @fpow (CField FR) w m <> c1 F) -> cmul w (cconj w) = c1 F ->
  forall (root : F -> F) (L tau : F) (u : nat -> F),
  fourier_agg F root 1 (Z.of_nat n) L tau None None None (map (rdft F n w u) (seq 0 (n / 2 + 1)))
  = spatial_agg F root 1 (Z.of_nat n) L (map u (seq 0 n)).
Proof. intros F FR n w Hn H1 H2 H3 root L tau u. exact (parseval_metric_1d F FR n w Hn H1 H2 H3 root L tau u). Qed.
Print Assumptions C16_parseval_partial.

(* Sobolev: the derivative_order = 1 aggregate is the sum over the axes of the plain aggregates of the spectral derivative
   (coefficients multiplied by i 2 pi k_d / L), for every spectrum, band and outer exponent; hence H1 = plain + sum_d metric(d_d u).
   (With the physical-space ex.derivative instead, the identity needs odd N or a Nyquist-free pair: irfftn drops the imaginary part of the
   Nyquist coefficient of an odd derivative.  That hypothesis is part of the witness test, not of this spectral statement.) *)
Theorem C16_sobolev_split : forall (F : FieldT) (root : F -> F) (D : nat) (N : Z) (L tau : F) (low high : option Z) (spec : list (cx F)),
  fourier_agg F root D N L tau low high None spec + fourier_agg F root D N L tau low high (Some 1%nat) spec
  = fourier_agg F root D N L tau low high None spec
    + fsum (map (fun d => fourier_agg F root D N L tau low high None (deriv_spec F tau L D N d spec)) (seq 0 D)).
Proof. intros. apply f_equal. apply fourier_agg_sobolev. Qed.
Print Assumptions C16_sobolev_split.

(* closed form of the un-rooted H1 aggregate: every retained mode is weighted with 1 + |2 pi k / L|^2 *)
Theorem C16_H1_closed_form : forall (F : FieldT) (D : nat) (N : Z) (L tau : F) (low high : option Z) (spec : list (cx F)),
  fourier_agg F (idK F) D N L tau low high None spec + fourier_agg F (idK F) D N L tau low high (Some 1%nat) spec
  = vol F D N L * fsum (map (fun p => if band_mask D N low high (fst p)
                                      then (1 + kappa2 F tau L D N (fst p)) * (cnorm2 (cmul (snd p) (c1 F)) / scaling_recon F D N (fst p)) else 0)
                            (with_idx F D N spec)).
Proof. intros. apply H1_closed_form. Qed.
Print Assumptions C16_H1_closed_form.

Theorem C16_cauchy_schwarz : forall (F : FieldT) (le : F -> F -> Prop), OrderedField F le ->
  forall u v : list F, length u = length v ->
  le (sqr F (dot F u v)) (sumsq F u * sumsq F v)
  /\ forall al : F, sqr F (dot F u (map (omul al) u)) = sumsq F u * sumsq F (map (omul al) u).
Proof.
  intros F le OF u v Hl. split; [apply (cauchy_schwarz F le OF); exact Hl | intros al; apply cauchy_schwarz_equality].
Qed.
Print Assumptions C16_cauchy_schwarz.

(* per channel: the correlation computed with a root that squares to the two sums lies in [-1, 1]; its square is (sum u v)^2 / (sum u^2 sum v^2) *)
Theorem C16_correlation_bounds : forall (F : FieldT) (le : F -> F -> Prop), OrderedField F le ->
  forall (root : F -> F) (u v : list F), length u = length v ->
  root (sumsq F u) * root (sumsq F u) = sumsq F u -> root (sumsq F v) * root (sumsq F v) = sumsq F v ->
  root (sumsq F u) <> 0 -> root (sumsq F v) <> 0 ->
  sqr F (corr_channel F root u v) = corr2_channel F u v
  /\ le (- (1)) (corr_channel F root u v) /\ le (corr_channel F root u v) 1.
Proof.
  intros F le OF root u v Hl H1 H2 Hn1 Hn2. split.
  - apply (corr_channel_sq F root u v H1 H2 Hn1 Hn2).
  - apply (corr_channel_bounds F le OF root u v Hl H1 H2 Hn1 Hn2).
Qed.
Print Assumptions C16_correlation_bounds.

(* = +1 / -1 for positively / negatively proportional fields ([root] the non-negative square root on non-negative arguments) *)
Theorem C16_correlation_proportional : forall (F : FieldT) (le : F -> F -> Prop), OrderedField F le ->
  forall (root : F -> F), (forall x, le 0 x -> le 0 (root x) /\ root x * root x = x) ->
  forall (al : F) (u : list F), sumsq F u <> 0 -> al <> 0 ->
  (le 0 al -> corr_channel F root u (map (omul al) u) = 1) /\ (le al 0 -> corr_channel F root u (map (omul al) u) = - (1))
  /\ corr2_channel F u (map (omul al) u) = 1.
Proof.
  intros F le OF root Hroot al u Hu Ha.
  destruct (corr_channel_proportional F le OF root al u Hroot Hu) as [Hp Hm].
  split; [intros H; apply Hp; assumption | split; [intros H; apply Hm; assumption|]].
  apply (corr2_proportional F al u Ha Hu).
Qed.
Print Assumptions C16_correlation_proportional.

(* the mode logic of spatial_norm / fourier_norm (executed for every mode string with and without reference), the spatial aggregator and the
   (mode, inner exponent, outer exponent) tables of the named metrics are re-translated from the source on every run
   (harness/translate/metrics.py -> Gen/MetricsGen.v; H1_*, mean_metric and correlation are compared with their expected text).  They are the
   model's: the combination per channel and the rejected calls for every mode; the aggregator with inner exponent 2 for ANY real power
   function with |x|^2 = x x (the outer power is the model's `root`); MAE / MSE / RMSE-type metrics use the exponents (1, 1), (2, 1), (2, 1/2) *)
From EXV Require Import Gen.MetricsGen Tie.MetricsTie.
Theorem C16_code_norms_are_model_norms : forall (F : FieldT) (mode : Z) (d s r : F) (ref_none : bool),
  gen_combine_spatial F mode d s r = combine_spatial F mode d s r
  /\ gen_combine_fourier F mode d s r = combine_fourier F mode d s r
  /\ gen_spatial_norm_raises ref_none mode = spatial_norm_raises ref_none mode
  /\ gen_fourier_norm_raises ref_none mode = fourier_norm_raises ref_none mode
  /\ (forall (powr : F -> F -> F) (absf root : F -> F) (outer : F) (D : nat) (N : Z) (L : F) (u : list F),
        (forall x, powr (absf x) (fz 2) = omul x x) -> (forall y, powr y outer = root y) ->
        gen_spatial_aggregator F powr absf D N L (fz 2) outer u = spatial_agg F root D N L u)
  /\ (nth 0 gen_table_spatial (0%Z, 0%Q, 0%Q) = (0%Z, (1 # 1)%Q, (1 # 1)%Q) /\ nth 3 gen_table_spatial (0%Z, 0%Q, 0%Q) = (0%Z, (2 # 1)%Q, (1 # 1)%Q)
      /\ nth 6 gen_table_spatial (0%Z, 0%Q, 0%Q) = (0%Z, (2 # 1)%Q, (1 # 2)%Q) /\ nth 4 gen_table_spatial (0%Z, 0%Q, 0%Q) = (1%Z, (2 # 1)%Q, (1 # 1)%Q)
      /\ nth 5 gen_table_spatial (0%Z, 0%Q, 0%Q) = (2%Z, (2 # 1)%Q, (1 # 1)%Q) /\ length gen_table_spatial = 9%nat)
  /\ (nth 2 gen_table_fourier (0%Z, 0%Q, 0%Q) = (0%Z, (2 # 1)%Q, (1 # 1)%Q) /\ nth 3 gen_table_fourier (0%Z, 0%Q, 0%Q) = (1%Z, (2 # 1)%Q, (1 # 1)%Q)
      /\ length gen_table_fourier = 6%nat /\ gen_H1_derivative_orders = [None; Some 1%Z]).
Proof.
  intros F mode d s r ref_none. splits.
  - apply combine_spatial_tie.
  - apply combine_fourier_tie.
  - apply spatial_raises_tie.
  - apply fourier_raises_tie.
  - intros powr absf root outer D N L u H2 Hr. apply spatial_aggregator_tie; assumption.
  - reflexivity.
  - reflexivity.
  - reflexivity.
  - reflexivity.
  - reflexivity.
  - reflexivity.
  - reflexivity.
  - reflexivity.
  - reflexivity.
  - exact (proj2 (proj2 tables_tie)).
Qed.
Print Assumptions C16_code_norms_are_model_norms.

Example C16_ex_ordered_Qc : OrderedField QcField Qcle.
Proof. exact Qc_ordered_field. Qed.

(* i is a primitive 4th root of unity of modulus 1 in the Gaussian rationals: the premises of the Parseval theorems hold for n = 4 *)
Example C16_ex_root_of_unity :
  let w : cx QcField := @ci QcOps in
  @fpow (CField Qc_formally_real) w 4 = c1 QcField
  /\ (forall m, (0 < m < 4)%nat -> @fpow (CField Qc_formally_real) w m <> c1 QcField)
  /\ cmul w (cconj w) = c1 QcField.
Proof.
  cbv zeta. split; [|split].
  - apply cx_ext; vm_compute; reflexivity.
  - intros m Hm H. destruct m as [|[|[|[|m]]]]; try lia;
      apply (f_equal (@re QcField)) in H; vm_compute in H; discriminate H.
  - apply cx_ext; vm_compute; reflexivity.
Qed.

(* a concrete instance of the Parseval theorem of the model, computed: n = 4, u = (1, -2, 1/2, 3), L = 2 *)
Example C16_ex_parseval_instance :
  let u := fun j : nat => nth j [Q2Qc 1; Q2Qc (-2); Q2Qc (1 # 2); Q2Qc 3] (Q2Qc 0) in
  fourier_agg QcField (idK QcField) 1 4 (Q2Qc 2) (Q2Qc 6) None None None (map (rdft QcField 4 (@ci QcOps) u) (seq 0 3))
  = spatial_agg QcField (idK QcField) 1 4 (Q2Qc 2) (map u (seq 0 4)).
Proof. vm_compute. reflexivity. Qed.
