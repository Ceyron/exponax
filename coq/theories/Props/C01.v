(* C01 — linear steppers advance band-limited states by the exact PDE solution: the linear symbols the code builds (Spectral/Symbols.v)
   for Advection, Diffusion, Dispersion, HyperDiffusion and the general linear stepper are the symbols of their DOCUMENTED operators
   (Spectral/LinOp.v); order 0 multiplies mode k by exp(dt * lambda_k), the exact solution operator of u_t = P(d)u on exp(i kappa.x)
   (that P(d) acts on exp(i kappa.x) as multiplication by its symbol is the one analytic fact used; it is NOT proved, no theorem
   here speaks about a PDE solution); the wave stepper's diagonalisation is the exact harmonic-oscillator solution, mean mode included.
   cexp is the complex exponential, used only through exp(a+b) = exp a exp b, exp 0 = 1.
   That mode k of the rfft layout carries exp(i kappa_k . x) on the grid is C04. *)
From Coq Require Import ZArith List.
From EXV Require Import Base.FieldLemmas Base.Scalar Spectral.Symbols Spectral.LinOp Steppers.Linear Steppers.LinearProofs Gen.ETDRK Gen.LinOps Tie.LinOpsTie.
Import ListNotations.
Local Open Scope fld_scope.

(* the bounds on length d and on length a are not used by the proof: the lemmas of Spectral/LinOp.v hold for every number of axes and
   every coefficient list *)
Theorem C01_symbols_are_documented : forall (F : FieldT) (d v xi : list F) (mu : F) (f1 f2 : bool) (a : list F),
  (1 <= length d <= 3)%nat -> length v = length d -> length xi = length d -> (length a <= 5)%nat ->
  sym_advection F v d = symbol_of F (pde_advection F v) d
  /\ sym_dispersion F f1 xi d = symbol_of F (pde_dispersion F f1 xi) d
  /\ sym_hyper_diffusion F f2 mu d = symbol_of F (pde_hyper_diffusion F f2 mu (length d)) d
  /\ poly_sym F a d = symbol_of F (pde_general F a (length d)) d.
Proof.
  intros F d v xi mu f1 f2 a Hd Hv Hxi Ha. splits.
  - apply advection_is_documented; assumption.
  - apply dispersion_is_documented; assumption.
  - apply hyper_diffusion_is_documented.
  - apply general_is_documented.
Qed.
Print Assumptions C01_symbols_are_documented.

(* anisotropic diffusion u_t = div(A grad u), every (not necessarily symmetric) matrix A, D = 1, 2, 3 *)
Theorem C01_diffusion_is_documented : forall (F : FieldT) (a11 a12 a13 a21 a22 a23 a31 a32 a33 d1 d2 d3 : F),
  sym_diffusion F [[a11]] [d1] = symbol_of F (pde_diffusion F [[a11]]) [d1]
  /\ sym_diffusion F [[a11; a12]; [a21; a22]] [d1; d2] = symbol_of F (pde_diffusion F [[a11; a12]; [a21; a22]]) [d1; d2]
  /\ sym_diffusion F [[a11; a12; a13]; [a21; a22; a23]; [a31; a32; a33]] [d1; d2; d3]
     = symbol_of F (pde_diffusion F [[a11; a12; a13]; [a21; a22; a23]; [a31; a32; a33]]) [d1; d2; d3].
Proof.
  intros. splits; apply diffusion_is_documented; try reflexivity; repeat constructor.
Qed.
Print Assumptions C01_diffusion_is_documented.

(* order 0: the code's step is multiplication by exp(dt*lambda_k) with the code's own exponent expression *)
Theorem C01_step_is_propagator : forall (F : FieldT) (cexp : F -> F) (I : Type) (dt : F) (lam u : I -> F) (k : I),
  etdrk0_step F (fun k => cexp (base_exp_arg F dt (lam k))) u k = cexp (dt * lam k) * u k
  /\ linear_step F cexp I dt lam u k = cexp (dt * lam k) * u k.
Proof. intros. split; reflexivity. Qed.
Print Assumptions C01_step_is_propagator.

(* for ANY dt (no CFL limit), any n, any state *)
Theorem C01_semigroup_and_inverse : forall (F : FieldT) (cexp : F -> F),
  (forall a b, cexp (a + b) = cexp a * cexp b) -> cexp 0 = 1 ->
  forall (I : Type) (lam : I -> F) (dt : F) (u : I -> F) (k : I),
  (forall n : nat, iter_step F I n (linear_step F cexp I dt lam) u k = linear_step F cexp I (fz (Z.of_nat n) * dt) lam u k)
  /\ linear_step F cexp I (- dt) lam (linear_step F cexp I dt lam u) k = u k.
Proof.
  intros F cexp Hadd H0 I lam dt u k. split.
  - intros n. apply semigroup; assumption.
  - apply inverse_step; assumption.
Qed.
Print Assumptions C01_semigroup_and_inverse.

(* wave stepper: each mode is the exact solution of h_tt = -(c rho)^2 h (independent of the normalisation 1/sqrt 2),
   the mean mode drifts with the mean velocity *)
Theorem C01_wave_exact : forall (F : FieldT) (ii s c rho dt Ep Em h v : F),
  ii * ii = - (1) -> fz 2 * (s * s) = 1 -> c <> 0 ->
  (rho <> 0 ->
     wave_mode F ii s c rho dt Ep Em false h v
     = (Ccos F Ep Em * h + Csin F ii Ep Em / (c * rho) * v, - (c * rho) * Csin F ii Ep Em * h + Ccos F Ep Em * v))
  /\ (rho = 0 -> Ep = 1 -> Em = 1 -> wave_mode F ii s c rho dt Ep Em true h v = (h + dt * v, v)).
Proof.
  intros F ii s c rho dt Ep Em h v Hi Hs Hc. split.
  - intros Hr. apply wave_exact; assumption.
  - intros Hr H1 H2. apply wave_exact_dc; assumption.
Qed.
Print Assumptions C01_wave_exact.

(* the whole step_fourier of the Wave stepper (forward transform, order-0 integrator, inverse transform, mean-mode correction) is
   re-translated from the source for one Fourier mode on every run (harness/translate/wave.py -> Gen/WaveGen.v) and IS wave_mode with
   s = 1 / sqrt2, for any value sqrt2 of jnp.sqrt(2) (C01_wave_exact needs 2 s^2 = 1 only); its eigenvalue pair is (i c rho, -i c rho),
   whose exponentials are the Ep, Em of the order-0 integrator *)
From EXV Require Import Gen.WaveGen.
Theorem C01_code_wave_step_is_model : forall (F : FieldT) (ii sqrt2 c rho dt Ep Em h v : F) (is_dc : bool),
  gen_wave_step F ii sqrt2 c rho dt Ep Em is_dc h v = wave_mode F ii (1 / sqrt2) c rho dt Ep Em is_dc h v
  /\ gen_wave_symbol F ii c rho = (wave_symbol F ii c rho 0, wave_symbol F ii c rho 1).
Proof. intros. split; reflexivity. Qed.
Print Assumptions C01_code_wave_step_is_model.

(* the hand-written symbols (Spectral/Symbols.v) are not only compared with the code at sample modes: Gen/LinOps.v is regenerated on
   every run by harness/translate/linops.py from the source text of exponax/_spectral.py (build_laplace_operator,
   build_gradient_inner_product_operator) and of EVERY `_build_linear_operator` under exponax/stepper (the translator fails if a
   class defines one that it does not cover; only Wave is excluded, its whole step is C01_code_wave_step_is_model), and the
   generated per-mode symbols equal the hand-written ones for all coefficients, flags and derivative vectors d of any length (any
   number of spatial axes). *)
Theorem C01_code_symbols_are_model_symbols : forall (F : FieldT) (d : list F),
  (forall order, gen_build_laplace_operator F d order = laplace_sym F order d)
  /\ (forall v order, gen_build_gradient_inner_product_operator F d v order = gip_sym F v order d)
  /\ (forall v, gen_sym_advection F v d = sym_advection F v d)
  /\ (forall A, gen_sym_diffusion F A d = sym_diffusion F A d)
  /\ (forall v A, gen_sym_advection_diffusion F v A d = sym_advection_diffusion F v A d)
  /\ (forall flag xi, gen_sym_dispersion F flag xi d = sym_dispersion F flag xi d)
  /\ (forall flag mu, gen_sym_hyper_diffusion F flag mu d = sym_hyper_diffusion F flag mu d)
  /\ (forall nu, gen_sym_burgers F nu d = sym_burgers F nu d)
  /\ (forall f1 f2 nu xi mu, gen_sym_korteweg_de_vries F f1 f2 nu xi mu d = sym_kdv F f1 f2 nu xi mu d)
  /\ (forall s2 s4, gen_sym_kuramoto_sivashinsky F s2 s4 d = sym_ks F s2 s4 d
                   /\ gen_sym_kuramoto_sivashinsky_conservative F s2 s4 d = sym_ks F s2 s4 d)
  /\ (forall nu drag, gen_sym_navier_stokes_vorticity F nu drag d = sym_navier_stokes F nu drag d
                     /\ gen_sym_kolmogorov_flow_vorticity F nu drag d = sym_navier_stokes F nu drag d
                     /\ gen_sym_navier_stokes_velocity F nu drag d = sym_navier_stokes F nu drag d
                     /\ gen_sym_kolmogorov_flow_velocity F nu drag d = sym_navier_stokes F nu drag d)
  /\ (forall a, gen_sym_general_linear F a d = poly_sym F a d
               /\ gen_sym_general_convection F a d = poly_sym F a d
               /\ gen_sym_general_gradient_norm F a d = poly_sym F a d
               /\ gen_sym_general_vorticity_convection F a d = poly_sym F a d
               /\ gen_sym_general_polynomial F a d = poly_sym F a d
               /\ gen_sym_general_nonlinear F a d = poly_sym F a d)
  /\ (forall nu c1, gen_sym_allen_cahn F nu c1 d = sym_allen_cahn F nu c1 d)
  /\ (forall nu r, gen_sym_fisher_kpp F nu r d = sym_fisher F nu r d)
  /\ (forall nu gam c1, gen_sym_cahn_hilliard F nu gam c1 d = sym_cahn_hilliard F nu gam c1 d)
  /\ (forall nu1 nu2 ch, (ch < 2)%nat -> gen_sym_gray_scott F nu1 nu2 ch d = sym_gray_scott F nu1 nu2 ch d)
  /\ (forall r kc, gen_sym_swift_hohenberg F r kc d = sym_swift_hohenberg F r kc d)
  /\ (forall nus ch, (ch < 3)%nat -> gen_sym_belousov_zhabotinsky F nus ch d = sym_belousov_zhabotinsky F nus ch d).
Proof.
  intros F d. splits; intros.
  - apply laplace_tie.
  - apply gip_tie.
  - apply advection_tie.
  - apply diffusion_tie.
  - apply advection_diffusion_tie.
  - apply dispersion_tie.
  - apply hyper_diffusion_tie.
  - apply burgers_tie.
  - apply kdv_tie.
  - split; [apply ks_tie | apply ks_conservative_tie].
  - apply navier_stokes_tie.
  - apply general_tie.
  - apply allen_cahn_tie.
  - apply fisher_tie.
  - apply cahn_hilliard_tie.
  - apply gray_scott_tie; assumption.
  - apply swift_hohenberg_tie.
  - apply belousov_zhabotinsky_tie; assumption.
Qed.
Print Assumptions C01_code_symbols_are_model_symbols.

(* the coefficients reach the symbol as the constructor argument of the same name, stored unchanged (checked by the translator),
   except for the promotion of a scalar velocity / dispersivity to the constant vector and of a scalar / vector diffusivity to
   the (constant) diagonal matrix, whose source text is translated as well (jnp.diag of a vector is modelled by diag_mat) *)
Theorem C01_code_constructor_promotions_are_model_promotions : forall (F : FieldT) (c : F) (v d : list F),
  gen_ctor_advection_velocity_scalar F c d = const_vec F c d
  /\ gen_ctor_advection_diffusion_velocity_scalar F c d = const_vec F c d
  /\ gen_ctor_dispersion_dispersivity_scalar F c d = const_vec F c d
  /\ gen_ctor_diffusion_diffusivity_scalar F c d = diag_mat F (const_vec F c d)
  /\ gen_ctor_advection_diffusion_diffusivity_scalar F c d = diag_mat F (const_vec F c d)
  /\ gen_ctor_diffusion_diffusivity_vector F v = diag_mat F v
  /\ gen_ctor_advection_diffusion_diffusivity_vector F v = diag_mat F v.
Proof. intros. apply ctor_tie. Qed.
Print Assumptions C01_code_constructor_promotions_are_model_promotions.

(* ii * ii = -1 is satisfiable: the Gaussian rationals *)
From EXV Require Import Base.Cplx.

Example C01_ex_i_squared : @omul QcC ci ci = @oopp QcC (@o1 QcC).
Proof. apply cx_ext; vm_compute; reflexivity. Qed.
