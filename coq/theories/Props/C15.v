(* C15 — Fourier interpolation and resolution changes are exact for band-limited states.
   Models: Layout/Resample.v (map_between_resolutions per wavenumber vector; tied to the code by exact correspondence of which modes are
   kept and by float comparison of the resampled spectra), Layout/Freq.v (mode slices), DFT/DFT1.v (interpolation). *)
From Coq Require Import ZArith Bool List.
From EXV Require Import Base.Scalar Layout.Freq Layout.FreqProofs Layout.Resample Layout.ResampleProofs DFT.DFT1 IC.Normalize DFT.DFTD.
Import ListNotations.
Local Open Scope fld_scope.

(* trigonometric interpolation is exact: the coefficients read off the transform of the samples of p = sum_m a_m e^{2 pi i m x/L},
   re-summed against the character table chi of ANY query point x (inside or outside the domain: chi is an arbitrary function),
   return p(x) = sum_m a_m chi(m); at a grid point this is the inversion theorem (idft . dft = id for EVERY state, C04_round_trip) *)
Theorem C15_interpolation_exact : forall (F : FieldT) (n : nat) (w w' : F),
  (0 < n)%nat -> fpow w n = 1 -> (forall m, (0 < m < n)%nat -> fpow w m <> 1) -> w * w' = 1 ->
  forall (a chi : nat -> F),
  bsum n (fun k => dft n w (fun j => bsum n (fun m => a m * fpow w' (j * m))) k / fz (Z.of_nat n) * chi k) = bsum n (fun m => a m * chi m).
Proof. intros F n w w' Hn H1 H2 H3 a chi. apply (interpolation_exact F n w w'); assumption. Qed.
Print Assumptions C15_interpolation_exact.

(* the same in every dimension D (D-fold iterated transform): the samples of p on the n^D grid are n^D idftI(a) *)
Theorem C15_interpolation_exact_any_dimension : forall (F : FieldT) (n : nat) (w w' : F),
  (0 < n)%nat -> fpow w n = 1 -> (forall m, (0 < m < n)%nat -> fpow w m <> 1) -> w * w' = 1 ->
  forall (D : nat) (a chi : list nat -> F),
  sumD F D n (fun k => dftD n D w (fun j => npts F D n * idftI n D w' a j) k / npts F D n * chi k) = sumD F D n (fun m => a m * chi m).
Proof. intros F n w w' Hn H1 H2 H3 D a chi. apply (interpolation_exact_D F n w w'); assumption. Qed.
Print Assumptions C15_interpolation_exact_any_dimension.

Theorem C15_interpolant_reproduces_grid_values : forall (F : FieldT) (n : nat) (w w' : F),
  (0 < n)%nat -> fpow w n = 1 -> (forall m, (0 < m < n)%nat -> fpow w m <> 1) -> w * w' = 1 ->
  forall (u : nat -> F) (j : nat), (j < n)%nat -> idft n w' (dft n w u) j = u j.
Proof. intros F n w w' Hn H1 H2 H3 u j Hj. apply dft_inversion; assumption. Qed.
Print Assumptions C15_interpolant_reproduces_grid_values.

(* the copied blocks: every leading-axis index of the smaller grid lies in exactly one of the two slices and keeps its signed
   wavenumber in the larger grid; all four parity combinations, n_new = n_old +- 1 included *)
Theorem C15_mode_blocks : forall n m j : Z, (0 < n)%Z -> (n <= m)%Z -> (0 <= j < n)%Z ->
  ((in_left n n j = true /\ in_right n n j = false) \/ (in_left n n j = false /\ in_right n n j = true))
  /\ (in_left n n j = true -> in_left n m j = true /\ fftfreq m j = fftfreq n j)
  /\ (in_right n n j = true -> in_right n m (j + (m - n)) = true /\ fftfreq m (j + (m - n)) = fftfreq n j).
Proof. exact mode_blocks. Qed.
Print Assumptions C15_mode_blocks.

(* every resolution change preserves the mean of ANY state; a Nyquist-free band-limited state keeps all its trigonometric-polynomial
   coefficients u_hat(k)/N^D when mapped to a finer grid or to a coarser grid that still resolves it (so the new samples are samples
   of the same function, and mapping back returns the original: consequences that are not stated as theorems; the statement is per
   wavenumber vector k with non-negative last component, the stored half of the spectrum) *)
Theorem C15_resolution_change : forall (F : FieldT) (n m : Z) (ob : bool) (old : list Z -> F) (k : list Z),
  ((2 <= n)%Z -> (2 <= m)%Z -> Forall (fun c => c = 0%Z) k ->
     resample_coef F n m ob old k / fpow (fz m) (length k) = old k / fpow (fz n) (length k))
  /\ ((0 < n)%Z -> (0 < m)%Z -> nyq_free (Z.min n m) k = true -> (hd 0 (rev k) >= 0)%Z ->
     resample_coef F n m ob old k / fpow (fz m) (length k) = old k / fpow (fz n) (length k)).
Proof.
  intros F n m ob old k. split.
  - intros Hn Hm H. apply mean_preserved; assumption.
  - intros Hn Hm H Hl. apply coefficients_preserved; assumption.
Qed.
Print Assumptions C15_resolution_change.

(* map_between_resolutions of the source: every array statement is compared with its expected text and the decisions (early return,
   the two oddball-mask conditions, the grid whose mode blocks are copied, the scaling modes) are re-translated on every run
   (harness/translate/resample.py -> Gen/ResampleGen.v); they are the decisions of the model, for all grid sizes and wavenumber vectors.
   The callees (scaling arrays, oddball mask, mode slices, shapes) are tied by C04_code_layout_is_model_layout / C04_code_scaling_and_slices_are_model. *)
From EXV Require Import Gen.ResampleGen Tie.ResampleTie.
Theorem C15_code_resampling_decisions_are_model : forall (K : Ops) (n m : Z) (oz : bool) (old : list Z -> K) (k : list Z),
  resample_coef K n m oz old k =
    (if gen_mbr_identity n m then old k
     else if vec_copied (gen_mbr_block_size n m) k
             && (if gen_mbr_mask_old n m oz then odd_ok n k else true)
             && (if gen_mbr_mask_new n m oz then odd_ok m k else true)
          then omul (fpow (odiv (fz m) (fz n)) (length k)) (old k) else o0)
  /\ gen_mbr_scaling_mode_old = 10%Z /\ gen_mbr_scaling_mode_new = 10%Z /\ mode_denoms 10 = (1, 1)%Z
  (* FourierInterpolator divides by the RECONSTRUCTION scaling (half weights on the last axis), all its statements compared as text *)
  /\ gen_interp_scaling_mode = 11%Z /\ mode_denoms 11 = (2, 1)%Z.
Proof.
  intros K n m oz old k. split; [apply resample_coef_tie|]. destruct resample_scaling_modes_tie as (A & B & C). repeat split; assumption || reflexivity.
Qed.
Print Assumptions C15_code_resampling_decisions_are_model.

Example C15_ex : resample_keeps 6 9 true [-2; 2]%Z = true /\ resample_keeps 6 9 true [-3; 1]%Z = false /\ resample_keeps 9 6 true [4; 1]%Z = false.
Proof. repeat split; reflexivity. Qed.
