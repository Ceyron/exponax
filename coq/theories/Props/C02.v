(* C02 — ETDRK steppers realise the order-p exponential Runge-Kutta scheme exactly.
   Subject: Gen/ETDRK.v, regenerated on every run from exponax/etdrk/_etdrk_{0..4}.py, _base_etdrk.py, _utils.py and
   the order dispatch of _base_stepper.py.  Specification: ETDRK/Phi.v (Cox-Matthews tableaux in phi-function form).
   F is ANY field of characteristic 0 (the complex numbers in particular): the statements therefore cover real, imaginary
   and general complex symbols z = dt*lambda <> 0, arbitrarily stiff; e, eh stand for exp z, exp (z/2).
   Not proved here (stated in DESIGN.md): the quadrature error of the 16-point contour mean (measured by the correspondence
   against phi-functions, including z = 0 exactly) and the O(dt^p) convergence theorem of Hochbruck-Ostermann (cited; its
   hypotheses - the scheme is the tableau with exact phi coefficients - are what is proved). *)
From Coq Require Import QArith List.
From EXV Require Import Base.FieldLemmas Base.Scalar ETDRK.Phi ETDRK.Order Gen.ETDRK Tie.ETDRKTie.
Import ListNotations.
Local Open Scope fld_scope.

(* every coefficient integrand of the code is the phi-function expression of the tableau *)
Theorem C02_coefficients_are_phi : forall (F : FieldT) (z e eh : F), z <> 0 ->
  etdrk1_integrand_1 F z e eh = phi1 z e
  /\ etdrk2_integrand_1 F z e eh = phi1 z e /\ etdrk2_integrand_2 F z e eh = phi2 z e
  /\ etdrk3_integrand_1 F z e eh = phi1 (half z) eh / fz 2 /\ etdrk3_integrand_2 F z e eh = phi1 z e
  /\ etdrk3_integrand_3 F z e eh = phi1 z e - fz 3 * phi2 z e + fz 4 * phi3 z e
  /\ etdrk3_integrand_4 F z e eh = fz 4 * phi2 z e - fz 8 * phi3 z e
  /\ etdrk3_integrand_5 F z e eh = - phi2 z e + fz 4 * phi3 z e
  /\ etdrk4_integrand_1 F z e eh = phi1 (half z) eh / fz 2
  /\ etdrk4_integrand_2 F z e eh = phi1 (half z) eh / fz 2
  /\ etdrk4_integrand_3 F z e eh = phi1 (half z) eh / fz 2
  /\ etdrk4_integrand_4 F z e eh = phi1 z e - fz 3 * phi2 z e + fz 4 * phi3 z e
  /\ fz 2 * etdrk4_integrand_5 F z e eh = fz 2 * phi2 z e - fz 4 * phi3 z e
  /\ etdrk4_integrand_6 F z e eh = - phi2 z e + fz 4 * phi3 z e.
Proof.
  intros F z e eh Hz.
  (* integrands of different orders with the same text are convertible (Tie/ETDRKTie.v) *)
  splits; [apply (c_e1 F z e eh) | apply (c_e1 F z e eh) | apply (c_e2 F z e eh) | apply (c_half F z e eh)
          | apply (c_e1 F z e eh) | apply (c_a3 F z e eh) | apply (c_4b3 F z e eh) | apply (c_c3 F z e eh)
          | apply (c_half F z e eh) | apply (c_half F z e eh) | apply (c_half F z e eh) | apply (c_a3 F z e eh)
          | apply (c_2b3 F z e eh) | apply (c_c3 F z e eh)]; exact Hz.
Qed.
Print Assumptions C02_coefficients_are_phi.

(* one step of order p = the ETDp tableau applied to the stepper's own nonlinear term N (any N that is a function of
   the state's values), at every mode k, with coefficients h * integrand(z k, exp (z k), exp (z k/2)) *)
Theorem C02_step_is_tableau : forall (F : FieldT) (I : Type) (h : F) (z E Eh : I -> F)
    (N : (I -> F) -> (I -> F)),
  (forall u v, (forall k, u k = v k) -> forall k, N u k = N v k) ->
  (forall k, z k <> 0) ->
  let coef (f : F -> F -> F -> F) : I -> F := fun k => h * f (z k) (E k) (Eh k) in
  forall u k,
    etdrk1_step F E (coef (etdrk1_integrand_1 F)) N u k = etd1 h z E N u k
    /\ etdrk2_step F E (coef (etdrk2_integrand_1 F)) (coef (etdrk2_integrand_2 F)) N u k = etd2rk h z E N u k
    /\ etdrk3_step F E Eh (coef (etdrk3_integrand_1 F)) (coef (etdrk3_integrand_2 F)) (coef (etdrk3_integrand_3 F))
         (coef (etdrk3_integrand_4 F)) (coef (etdrk3_integrand_5 F)) N u k = etd3rk h z E Eh N u k
    /\ etdrk4_step F E Eh (coef (etdrk4_integrand_1 F)) (coef (etdrk4_integrand_2 F)) (coef (etdrk4_integrand_3 F))
         (coef (etdrk4_integrand_4 F)) (coef (etdrk4_integrand_5 F)) (coef (etdrk4_integrand_6 F)) N u k
       = etd4rk h z E Eh N u k.
Proof.
  intros F I h z E Eh N Next Hz coef u k. splits.
  - apply step1_tableau; assumption.
  - apply (step2_tableau F I h z E Eh N Next Hz).
  - apply step3_tableau; assumption.
  - apply step4_tableau; assumption.
Qed.
Print Assumptions C02_step_is_tableau.

Theorem C02_order0_is_linear : forall (F : FieldT) (I : Type) (E u : I -> F) (k : I),
  etdrk0_step F E u k = E k * u k.
Proof. intros. reflexivity. Qed.
Print Assumptions C02_order0_is_linear.

(* the exponentials are exp(dt*lambda) and exp(dt*lambda/2); contour points are z + r*w with z = dt*lambda *)
Theorem C02_exponent_arguments : forall (F : FieldT) (dt lam r w lr : F),
  base_exp_arg F dt lam = dt * lam /\ etdrk3_half_exp_arg F dt lam = half (dt * lam)
  /\ etdrk4_half_exp_arg F dt lam = half (dt * lam)
  /\ etdrk1_lr F r w (etdrk1_Ldt F dt lam) = dt * lam + r * w /\ etdrk2_lr F r w (etdrk2_Ldt F dt lam) = dt * lam + r * w
  /\ etdrk3_lr F r w (etdrk3_Ldt F dt lam) = dt * lam + r * w /\ etdrk4_lr F r w (etdrk4_Ldt F dt lam) = dt * lam + r * w
  /\ etdrk3_half_arg F lr = half lr /\ etdrk4_half_arg F lr = half lr.
Proof.
  intros F dt lam r w lr.
  (* definitions of different orders with the same text are convertible (Tie/ETDRKTie.v) *)
  splits; [reflexivity | apply (half_exp_arg F dt lam) | apply (half_exp_arg F dt lam)
          | apply (contour_point F dt lam r w) | apply (contour_point F dt lam r w) | apply (contour_point F dt lam r w)
          | apply (contour_point F dt lam r w) | reflexivity | reflexivity].
Qed.
Print Assumptions C02_exponent_arguments.

(* the exponent of the j-th contour point is i*pi*(2j-1)/M: the roots of unity are shifted by half a step (that w_j^M = -1
   follows, for an exponential with exp(i pi) = -1, is C19_contour_points_are_roots_of_minus_one) *)
Theorem C02_contour_half_shifted : forall (F : FieldT) (ii pi j M : F), M <> 0 ->
  fz 2 * M * root_arg F ii pi j M = (ii * pi) * (fz 2 * (fz 2 * j - 1)).
Proof. exact root_arg_half_shift. Qed.
Print Assumptions C02_contour_half_shifted.

(* no coefficient is reduced to its real part (the complex-symbol defect F1 repaired by /repo commit 1577368) *)
Theorem C02_no_real_part : forallb (fun t => negb (snd t)) etdrk_takes_real = true.
Proof. reflexivity. Qed.
Print Assumptions C02_no_real_part.

(* order dispatch of BaseStepper: order k -> ETDRKk for k = 0..4, anything else is refused *)
Theorem C02_dispatch : forall order : Z,
  order_dispatch order = if (0 <=? order)%Z && (order <=? 4)%Z then Some (Z.to_nat order) else None.
Proof.
  intros [|p|p]; try reflexivity.
  do 3 (destruct p as [p|p|]; try reflexivity).
Qed.
Print Assumptions C02_dispatch.

(* order conditions on the weights of the tableaux of ETDRK/Phi.v, the expressions written out again (ETDRK/Order.v), not taken from
   etd#rk: the weights of orders 2, 3, 4 sum to phi_1; sum b_i c_i = phi_2 at orders 3, 4; the third stage of ETD4RK sums to phi_1
   when e = eh^2; the closed forms of phi_1, phi_2, phi_3 *)
Theorem C02_order_conditions : forall (F : FieldT) (z e eh : F), z <> 0 ->
  let p1 := phi1 z e in let p2 := phi2 z e in let p3 := phi3 z e in
  (p1 - p2) + p2 = p1
  /\ (p1 - fz 3 * p2 + fz 4 * p3) + (fz 4 * p2 - fz 8 * p3) + (- p2 + fz 4 * p3) = p1
  /\ (p1 - fz 3 * p2 + fz 4 * p3) + (fz 2 * p2 - fz 4 * p3) + (fz 2 * p2 - fz 4 * p3) + (- p2 + fz 4 * p3) = p1
  /\ (fz 4 * p2 - fz 8 * p3) / fz 2 + (- p2 + fz 4 * p3) * 1 = p2
  /\ (fz 2 * p2 - fz 4 * p3) / fz 2 + (fz 2 * p2 - fz 4 * p3) / fz 2 + (- p2 + fz 4 * p3) * 1 = p2
  /\ (e = eh * eh -> let q := phi1 (half z) eh / fz 2 in (eh * q - q) + 0 + fz 2 * q = 1 * p1)
  /\ (p1 = (e - 1) / z /\ p2 = (e - 1 - z) / (z * z) /\ p3 = (e - 1 - z - z * z / fz 2) / (z * z * z)).
Proof.
  intros F z e eh Hz p1 p2 p3. splits.
  - apply etd2_weights.
  - apply etd3_weights.
  - apply etd4_weights.
  - apply etd3_bc.
  - apply etd4_bc.
  - apply etd4_row4. exact Hz.
  - reflexivity.
  - apply phi2_closed. exact Hz.
  - apply phi3_closed. exact Hz.
Qed.
Print Assumptions C02_order_conditions.

(* z <> 0 is met by a genuinely complex symbol in the Gaussian rationals, z = -3/2 + 2i *)
From EXV Require Import Base.Cplx.
From Coq Require Import Qcanon.
Example C02_ex_nonvacuous :
  let z : QcC := mkcx (Q2Qc (-3 # 2)) (Q2Qc 2) in z <> @o0 QcC.
Proof. cbv zeta. intro H. apply (f_equal re) in H. cbn in H. discriminate H. Qed.
