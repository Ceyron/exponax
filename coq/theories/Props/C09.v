(* C09 — conserved quantities and equilibria survive the discretisation exactly.
   Proved: the spatial mean is the zero mode of the transform; the conservation-form symbols vanish there (any D); the mean-mode
   coefficient of the conservation-form nonlinear terms vanishes for every input; hence every ETDRK order (stage programs translated
   from the source) leaves the mean unchanged; every constant equilibrium (lambda u + N(u) = 0 mode by mode) is a fixed point of
   every ETD tableau.  Also proved (Nonlin/MeanFree.v, band symmetry m -> -m of the dealiased convolution sums, 2K < N): the mean-mode coefficient of the
   NON-conservative single-channel convection and of the 1D default convection vanishes for every state; the 2D vorticity convection has zero
   mean for every state; the Leray-projected 3D rotational form has zero mean on divergence-free states.
   Work (Nonlin/Energy.v): with the pairing <a, b> = sum_{k in band} a(-k) b(k) (for spectra of real fields a(-k) = conj a(k), so this is
   N^D times the L^2 inner product) and the dealiased products with 3K < N, the single-channel Burgers-type convection (both forms) does no
   work on its own state, and the 2D vorticity convection does no work against the vorticity (enstrophy) nor against the stream function
   (energy) - for every state.  Proof: triple sums over a + m + c = 0 in the band are symmetric under permuting the slots (reflection of the
   band) and a derivative symbol is additive, phi(a) + phi(m) + phi(c) = 0.
   The Leray-projected 3D rotational form does no work on divergence-free band-limited states (a . (a x b) = 0 for the band triple sums and
   <u, grad p> = -<div u, p> = 0).
   NOT proved here (checked on the real code by the witness oracle): that the real-field pairing of the implementation (irfftn / Parseval with
   half-spectrum weights, C16/C17) is this bilinear pairing, and rounding. *)
From Coq Require Import ZArith List.
From EXV Require Import Base.FieldLemmas Base.Scalar Spectral.Symbols DFT.DFT1 Nonlin.Conv Nonlin.Terms ETDRK.Phi Gen.ETDRK Steppers.Conservation
  Nonlin.MeanFree Nonlin.Energy.
Import ListNotations.
Local Open Scope fld_scope.

(* the mean is the zero mode: rfftn(u)(0) = sum of the grid values = N * mean *)
Theorem C09_mean_is_zero_mode : forall (F : FieldT) (n : nat) (w : F) (u : nat -> F), dft n w u 0 = bsum n u.
Proof. intros. apply dft_zero_mode. Qed.
Print Assumptions C09_mean_is_zero_mode.

(* conservation-form linear symbols vanish at the mean mode (any dimension, any coefficients) *)
Theorem C09_symbols_vanish_at_mean_mode : forall (F : FieldT) (d v xi : list F) (A : list (list F)) (nu mu s2 s4 gam c1 x1 : F) (f1 f2 : bool),
  Forall (fun x => x = 0) d ->
  sym_advection F v d = 0 /\ sym_diffusion F A d = 0 /\ sym_advection_diffusion F v A d = 0
  /\ sym_dispersion F f1 xi d = 0 /\ sym_hyper_diffusion F f2 mu d = 0 /\ sym_burgers F nu d = 0
  /\ sym_kdv F f1 f2 nu x1 mu d = 0 /\ sym_ks F s2 s4 d = 0 /\ sym_cahn_hilliard F nu gam c1 d = 0
  /\ sym_navier_stokes F nu 0 d = 0.
Proof. intros. apply dc_symbols_zero. assumption. Qed.
Print Assumptions C09_symbols_vanish_at_mean_mode.

(* mean-mode coefficient of the conservation-form nonlinear terms, for EVERY input and any product operator *)
Theorem C09_nonlinear_terms_have_zero_mean : forall (F : FieldT) (P2 : field F -> field F -> field F)
    (P3 : field F -> field F -> field F -> field F) (ii s b sc : F) (D : nat) (k0 : idx) (u : field F) (us : list (field F)) (i : nat),
  Forall (fun c => c = 0%Z) k0 -> is_zero k0 = true ->
  conv_sc_cons F P2 ii s D b u k0 = 0
  /\ nth i (conv_mc_cons F P2 ii s D b us) (fzero F) k0 = 0
  /\ gradient_norm F P2 ii s D b true u k0 = 0
  /\ cahn_hilliard F P3 ii s D sc u k0 = 0.
Proof.
  intros F P2 P3 ii s b sc D k0 u us i H0 Hz. splits.
  - apply conv_sc_cons_dc; assumption.
  - apply conv_mc_cons_dc; assumption.
  - apply gradient_norm_dc; assumption.
  - apply cahn_hilliard_dc; assumption.
Qed.
Print Assumptions C09_nonlinear_terms_have_zero_mean.

(* the NON-conservative single-channel convection -b sum_c u d_c u, evaluated with the dealiased pseudo-spectral product on N^D points
   with cutoff K (2K < N), has zero mean for every input state, in any dimension *)
Theorem C09_nonconservative_single_channel_zero_mean : forall (F : FieldT) (D : nat) (N Kc : Z) (ii s b : F) (u : field F),
  (0 < N)%Z -> (0 <= Kc)%Z -> (2 * Kc < N)%Z ->
  conv_sc_noncons F (prod2 F D N Kc) ii s D b u (zeros D) = 0.
Proof. intros. apply conv_sc_noncons_dc; assumption. Qed.
Print Assumptions C09_nonconservative_single_channel_zero_mean.

(* the 1D default Burgers / KdV convection (multi-channel form with one channel, non-conservative) *)
Theorem C09_default_1d_convection_zero_mean : forall (F : FieldT) (N Kc : Z) (ii s b : F) (u : field F),
  (0 < N)%Z -> (0 <= Kc)%Z -> (2 * Kc < N)%Z ->
  nth 0 (conv_mc_noncons F (prod2 F 1 N Kc) ii s 1 b [u]) (fzero F) (zeros 1) = 0.
Proof. intros. apply conv_mc_noncons_1d_dc; assumption. Qed.
Print Assumptions C09_default_1d_convection_zero_mean.

(* 2D vorticity convection -b (u . grad w), u = curl^-1 w through the stream function psi = inv_lap_one w (where(lap == 0, 1, 1/lap)):
   zero mean for every state *)
Theorem C09_vorticity_convection_zero_mean : forall (F : FieldT) (D : nat) (N Kc : Z) (ii s b : F) (w : field F),
  (0 < N)%Z -> (0 <= Kc)%Z -> (2 * Kc < N)%Z ->
  vorticity_conv F (prod2 F D N Kc) ii s D b w (zeros D) = 0.
Proof. intros. apply vorticity_conv_dc; assumption. Qed.
Print Assumptions C09_vorticity_convection_zero_mean.

(* 3D rotational form u x curl u, Leray-projected: zero mean of every component on divergence-free band-limited states *)
Theorem C09_rotational_convection_zero_mean : forall (F : FieldT) (N Kc : Z) (ii s : F) (u0 u1 u2 : field F),
  (0 < N)%Z -> (0 <= Kc)%Z -> (2 * Kc < N)%Z ->
  (forall m, in_band Kc m = true -> dc F ii s 0 m * u0 m + dc F ii s 1 m * u1 m + dc F ii s 2 m * u2 m = 0) ->
  forall i, (i < 3)%nat -> nth i (projected_conv F (prod2 F 3 N Kc) ii s 3 [u0; u1; u2]) (fzero F) (zeros 3) = 0.
Proof. intros. apply projected_conv_dc; assumption. Qed.
Print Assumptions C09_rotational_convection_zero_mean.

(* ... and for the terms AS REGENERATED FROM THE SOURCE (Gen/NonlinFuns.v, harness/translate/nonlin.py; tied to the term models in
   Tie/NonlinTie.v) with the concrete dealiasing mask and pseudo-spectral products: the source text of the single-channel convection (both
   forms), of the gradient norm with its mean-mode fix and of the 2D vorticity convection has zero mean for EVERY input state, any D / N / cutoff *)
From EXV Require Import Nonlin.ConvProofs Gen.NonlinFuns Tie.NonlinTie.
Theorem C09_code_terms_have_zero_mean : forall (F : FieldT) (D : nat) (N Kc : Z) (ii s ND b : F) (u : field F) (us : list (field F)),
  (0 < N)%Z -> (0 <= Kc)%Z -> (2 * Kc < N)%Z ->
  let M := msk F Kc in let P2 := prod2 F D N Kc in let P3 := prod3 F D N Kc in
  nth 0 (gen_convection F M P2 P3 ii s D ND b true true us) (fzero F) (zeros D) = 0
  /\ nth 0 (gen_convection F M P2 P3 ii s D ND b true false us) (fzero F) (zeros D) = 0
  /\ gen_gradient_norm F M P2 P3 ii s D ND b true u (zeros D) = 0
  /\ gen_vorticity_conv F M P2 P3 ii s D ND b u (zeros D) = 0.
Proof.
  intros F D N Kc ii s ND b u us HN HK H2 M P2 P3.
  pose proof (zeros_all D) as Hz1. unfold M, P2, P3. splits.
  - rewrite convection_sc_cons_tie. apply conv_sc_cons_dc; assumption.
  - rewrite convection_sc_noncons_tie. apply conv_sc_noncons_dc; assumption.
  - rewrite gradient_norm_tie. apply gradient_norm_dc; assumption.
  - rewrite vorticity_conv_tie by (intros; apply prod2_ext; assumption). apply vorticity_conv_dc; assumption.
Qed.
Print Assumptions C09_code_terms_have_zero_mean.

(* Burgers-type convection does no work on its own (band-limited) state: conservative and non-conservative single-channel forms, any D *)
Theorem C09_burgers_type_convection_does_no_work : forall (F : FieldT) (D : nat) (N Kc : Z) (ii s b : F) (u : field F),
  (0 < N)%Z -> (0 <= Kc)%Z -> (3 * Kc < N)%Z ->
  pairing F D Kc (msk F Kc u) (conv_sc_cons F (prod2 F D N Kc) ii s D b u) = 0
  /\ pairing F D Kc (msk F Kc u) (conv_sc_noncons F (prod2 F D N Kc) ii s D b u) = 0.
Proof. intros. split; [apply conv_sc_cons_no_work | apply conv_sc_noncons_no_work]; assumption. Qed.
Print Assumptions C09_burgers_type_convection_does_no_work.

(* ... and for the SOURCE text (Gen/NonlinFuns.v, tied in Tie/NonlinTie.v): the single-channel convection of the source, both forms, does no
   work on its own band-limited state (3K < N: the 2/3 rule), for every state in any dimension *)

Theorem C09_code_burgers_type_convection_does_no_work : forall (F : FieldT) (D : nat) (N Kc : Z) (ii s ND b : F) (u : field F),
  (0 < N)%Z -> (0 <= Kc)%Z -> (3 * Kc < N)%Z ->
  let M := msk F Kc in let P2 := prod2 F D N Kc in let P3 := prod3 F D N Kc in
  pairing F D Kc (msk F Kc u) (fun k => nth 0 (gen_convection F M P2 P3 ii s D ND b true true [u]) (fzero F) k) = 0
  /\ pairing F D Kc (msk F Kc u) (fun k => nth 0 (gen_convection F M P2 P3 ii s D ND b true false [u]) (fzero F) k) = 0.
Proof.
  intros F D N Kc ii s ND b u HN HK H3 M P2 P3. unfold M, P2, P3. split.
  - rewrite (pairing_ext_r F D Kc _ _ (conv_sc_cons F (prod2 F D N Kc) ii s D b u)) by (intros k; rewrite convection_sc_cons_tie; reflexivity).
    apply conv_sc_cons_no_work; assumption.
  - rewrite (pairing_ext_r F D Kc _ _ (conv_sc_noncons F (prod2 F D N Kc) ii s D b u)) by (intros k; rewrite convection_sc_noncons_tie; reflexivity).
    apply conv_sc_noncons_no_work; assumption.
Qed.
Print Assumptions C09_code_burgers_type_convection_does_no_work.

(* 2D vorticity convection: no enstrophy work (<w, N(w)> = 0) and no energy work (<psi, N(w)> = 0, psi the stream function used by the term) *)
Theorem C09_vorticity_convection_does_no_work : forall (F : FieldT) (D : nat) (N Kc : Z) (ii s b : F) (w : field F),
  (0 < N)%Z -> (0 <= Kc)%Z -> (3 * Kc < N)%Z ->
  pairing F D Kc (msk F Kc w) (vorticity_conv F (prod2 F D N Kc) ii s D b w) = 0
  /\ pairing F D Kc (fun k => inv_lap_one F ii s D k * msk F Kc w k) (vorticity_conv F (prod2 F D N Kc) ii s D b w) = 0.
Proof. intros. apply (vorticity_conv_no_work F D N Kc); assumption. Qed.
Print Assumptions C09_vorticity_convection_does_no_work.

(* 3D rotational convection u x curl u with Leray projection: no work on divergence-free band-limited states *)
Theorem C09_rotational_convection_does_no_work : forall (F : FieldT) (N Kc : Z) (ii s : F) (u0 u1 u2 : field F),
  (0 < N)%Z -> (0 <= Kc)%Z -> (3 * Kc < N)%Z ->
  (forall m, in_band Kc m = true -> dc F ii s 0 m * u0 m + dc F ii s 1 m * u1 m + dc F ii s 2 m * u2 m = 0) ->
  let Nl := projected_conv F (prod2 F 3 N Kc) ii s 3 [u0; u1; u2] in
  pairing F 3 Kc (msk F Kc u0) (nth 0 Nl (fzero F)) + pairing F 3 Kc (msk F Kc u1) (nth 1 Nl (fzero F))
  + pairing F 3 Kc (msk F Kc u2) (nth 2 Nl (fzero F)) = 0.
Proof. intros. apply projected_conv_no_work; assumption. Qed.
Print Assumptions C09_rotational_convection_does_no_work.

(* every order leaves a mode unchanged where the propagator is 1 and the nonlinear term vanishes for every input *)
Theorem C09_mean_preserved : forall (F : FieldT) (I : Type) (k0 : I) (E Eh c1 c2 c3 c4 c5 c6 : I -> F) (N : (I -> F) -> (I -> F)),
  E k0 = 1 -> (forall v, N v k0 = 0) -> forall u,
  etdrk0_step F E u k0 = u k0 /\ etdrk1_step F E c1 N u k0 = u k0 /\ etdrk2_step F E c1 c2 N u k0 = u k0
  /\ etdrk3_step F E Eh c1 c2 c3 c4 c5 N u k0 = u k0 /\ etdrk4_step F E Eh c1 c2 c3 c4 c5 c6 N u k0 = u k0.
Proof. intros. apply mean_preserved; assumption. Qed.
Print Assumptions C09_mean_preserved.

(* constant equilibria are fixed points of ETD1, ETD2RK, ETD3RK, ETD4RK (for every h; no restriction on the growth rate in exact arithmetic) *)
Theorem C09_equilibria_are_fixed_points : forall (F : FieldT) (I : Type) (h : F) (lam E Eh : I -> F) (N : (I -> F) -> (I -> F)) (ustar : I -> F),
  (forall u v, (forall k, u k = v k) -> forall k, N u k = N v k) ->
  (forall k, lam k * ustar k + N ustar k = 0) ->
  (forall k, h * lam k = 0 -> E k = 1 /\ Eh k = 1) ->
  forall k, let z := fun k => h * lam k in
    etd1 h z E N ustar k = ustar k /\ etd2rk h z E N ustar k = ustar k
    /\ etd3rk h z E Eh N ustar k = ustar k /\ etd4rk h z E Eh N ustar k = ustar k.
Proof.
  intros F I h lam E Eh N ustar Next Heq HE k z. splits.
  - apply (etd1_fixed_point F I h lam E Eh N ustar Heq HE).
  - apply (etd2rk_fixed_point F I h lam E Eh N Next ustar Heq HE).
  - apply (etd3rk_fixed_point F I h lam E Eh N Next ustar Heq HE).
  - apply (etd4rk_fixed_point F I h lam E Eh N Next ustar Heq HE).
Qed.
Print Assumptions C09_equilibria_are_fixed_points.

(* non-vacuity of the divergence-free premise: every stream function phi gives a divergence-free field (d_1 phi, - d_0 phi, 0) *)
Section NonVacuity.
  Variable F : FieldT.
  Add Ring FfC09 : (fring F).
  Example C09_divergence_free_states_exist : forall (ii s : F) (phi : field F) (m : idx),
    dc F ii s 0 m * (dc F ii s 1 m * phi m) + dc F ii s 1 m * (- dc F ii s 0 m * phi m) + dc F ii s 2 m * 0 = 0.
  Proof. intros ii s phi m. ring. Qed.
End NonVacuity.
