(* C12 — forcing terms inject exactly the documented field.
   Models: Nonlin/Injection.v (hand-written from the two Kolmogorov nonlinear functions; exact correspondence of the whole
   injection arrays), ETDRK/Phi.v + ETDRK/Forcing.v (tableaux; tied to the code by C02), Nonlin/Terms.v (vorticity convection). *)
From Coq Require Import QArith List.
From EXV Require Import Base.Scalar Base.FieldLemmas Layout.Freq DFT.DFT1 Nonlin.Conv Nonlin.Terms Nonlin.Injection
  ETDRK.Phi ETDRK.Forcing Nonlin.Laminar3D.
Import ListNotations.
Local Open Scope fld_scope.

(* 2D vorticity forcing: exactly the stored mode (0, k) carries N^2/2 * a with a = -k (2 pi/L) gamma, i.e. the transform of
   -k (2 pi / L) gamma cos(k (2 pi / L) x_1); 3D velocity forcing: channel 0 carries N^3/2 * (-i gamma) at (0,+k,0) and N^3/2 * (+i gamma) at
   (0,-k,0), i.e. the transform of gamma sin(k (2 pi / L) x_1); other channels and all other modes are zero.  (0 < k < N/2) *)
Theorem C12_injection_is_documented : forall (F : FieldT) (ii s gamma : F) (N kinj : Z) (k : list Z) (ch : nat),
  (0 < kinj)%Z /\ (2 * kinj < N)%Z ->
  injection2d F s gamma N kinj k
  = (if ((nth 0 k 0 =? 0) && (nth 1 k 0 =? kinj))%Z then fz N * (fz N / fz 2) * (- (s * fz kinj) * gamma) else 0)
  /\ injection3d F ii gamma N kinj ch k
  = match ch with
    | O => if ((nth 0 k 0 =? 0) && (nth 1 k 0 =? kinj) && (nth 2 k 0 =? 0))%Z then fz N * (fz N / fz 2) * fz N * (- ii * gamma)
           else if ((nth 0 k 0 =? 0) && (nth 1 k 0 =? - kinj) && (nth 2 k 0 =? 0))%Z then fz N * (fz N / fz 2) * fz N * (ii * gamma)
           else 0
    | _ => 0
    end.
Proof.
  intros F ii s gamma N kinj k ch Hk. split.
  - apply (injection2d_spec F s gamma N kinj Hk).
  - apply (injection3d_spec F ii gamma N kinj Hk).
Qed.
Print Assumptions C12_injection_is_documented.

(* the forcing arrays of the source: the constructors of VorticityConvection2dKolmogorov / ProjectedConvection3dKolmogorov are executed
   symbolically on every run (harness/translate/spectral.py -> gen_injection2d / gen_injection3d in Gen/InjectionGen.v, with the derivative
   operator build_derivative_operator(D, L, N) that BaseStepper hands to _build_nonlinear_fun, callees inlined) and ARE the model's arrays at the
   signed wavenumber vector of every stored index - every N, forcing mode, scale and extent; (re, im) against any imaginary unit ii.
   With C12_injection_is_documented the SOURCE injects exactly the documented field. *)
From EXV Require Import Gen.InjectionGen Tie.InjectionTie.
Theorem C12_code_injection_is_model_injection : forall (F : FieldT) (pi ii L gamma : F) (N kinj : Z) (ch : nat) (idx : list Z),
  gen_injection2d F pi L gamma N kinj idx = injection2d F (fz 2 * pi / L) gamma N kinj (wnvec 2 N idx)
  /\ injection3d F ii gamma N kinj ch (wnvec 3 N idx)
     = fst (gen_injection3d F L gamma N kinj ch idx) + ii * snd (gen_injection3d F L gamma N kinj ch idx).
Proof.
  intros F pi ii L gamma N kinj ch idx. split.
  - apply injection2d_tie.
  - apply injection3d_tie.
Qed.
Print Assumptions C12_code_injection_is_model_injection.

(* the transform of a real harmonic c e^{i theta} + c' e^{-i theta} puts n*c on mode m and n*c' on mode n-m
   (cos: c = c' = a/2; sin: c = a/(2i) = -i a/2, c' = +i a/2) -- the link between the arrays above and the documented fields *)
Theorem C12_transform_of_a_harmonic : forall (F : FieldT) (n : nat) (w w' : F),
  (0 < n)%nat -> fpow w n = 1 -> (forall m, (0 < m < n)%nat -> fpow w m <> 1) -> w * w' = 1 ->
  forall (c c' : F) (m k : nat), (0 < m < n)%nat -> (2 * m <> n)%nat -> (k < n)%nat ->
  dft n w (fun j => c * fpow w' (j * m) + c' * fpow w' (j * (n - m))) k
  = if (k =? m)%nat then fz (Z.of_nat n) * c else if (k =? n - m)%nat then fz (Z.of_nat n) * c' else 0.
Proof. intros F n w w' Hn H1 H2 H3 c c' m k Hm H2m Hk. apply (dft_two_characters F n w w'); assumption. Qed.
Print Assumptions C12_transform_of_a_harmonic.

(* on the laminar subspace (vorticity depending on x_1 only) the 2D convection term vanishes identically *)
Theorem C12_convection_vanishes_on_laminar_states : forall (F : FieldT) (N Kc : Z) (ii s b : F) (w : field F),
  (forall k, nth 0 k 0%Z <> 0%Z -> w k = 0) ->
  forall k, vorticity_conv F (prod2 F 2 N Kc) ii s 2 b w k = 0.
Proof. intros F N Kc ii s b w Hw k. apply vorticity_conv_laminar. exact Hw. Qed.
Print Assumptions C12_convection_vanishes_on_laminar_states.

(* 3D: on the laminar subspace of the Kolmogorov velocity flow (u = (u_0(x_1), 0, 0): channel 0 supported on the axis k = (0, j, 0)) the
   Leray-projected rotational convection vanishes identically - u x curl u is a gradient there and the projection removes it *)
Theorem C12_rotational_convection_vanishes_on_laminar_states : forall (F : FieldT) (N Kc : Z) (ii s : F) (u0 : field F) (i : nat) (k : list Z),
  (0 < N)%Z -> (0 <= Kc)%Z -> (2 * Kc < N)%Z -> ii <> 0 -> s <> 0 ->
  (forall x, nth 0 x 0%Z <> 0%Z \/ nth 2 x 0%Z <> 0%Z -> u0 x = 0) ->
  (i < 3)%nat -> length k = 3%nat ->
  nth i (projected_conv F (prod2 F 3 N Kc) ii s 3 [u0; fzero F; fzero F]) (fzero F) k = 0.
Proof. intros. apply projected_conv_laminar; assumption. Qed.
Print Assumptions C12_rotational_convection_vanishes_on_laminar_states.

(* ... and for the SOURCE text of the two Kolmogorov nonlinear functions (Gen/NonlinFuns.v, tied in Tie/NonlinTie.v): on the laminar
   subspace the source returns exactly its forcing array (the convection part vanishes), in 2D for every state supported on k_0 = 0 and in 3D
   for every velocity (u_0(x_1), 0, 0) *)
From EXV Require Import Gen.NonlinFuns Tie.LaminarTie.
Theorem C12_code_terms_reduce_to_the_forcing_on_laminar_states : forall (F : FieldT) (N Kc : Z) (ii s ND b : F) (w u0 inj : field F)
    (injs : list (field F)) (i : nat) (k : list Z),
  (0 < N)%Z -> (0 <= Kc)%Z -> (2 * Kc < N)%Z -> ii <> 0 -> s <> 0 ->
  ((forall x, nth 0 x 0%Z <> 0%Z -> w x = 0) ->
     gen_vorticity_conv_kolmogorov F (msk F Kc) (prod2 F 2 N Kc) (prod3 F 2 N Kc) ii s 2 ND b inj w k = inj k)
  /\ ((forall x, nth 0 x 0%Z <> 0%Z \/ nth 2 x 0%Z <> 0%Z -> u0 x = 0) -> (i < 3)%nat -> length k = 3%nat ->
     nth i (gen_projected_conv_kolmogorov F (msk F Kc) (prod2 F 3 N Kc) (prod3 F 3 N Kc) ii s 3 ND injs [u0; fzero F; fzero F]) (fzero F) k
     = nth i injs (fzero F) k).
Proof. intros. apply laminar_source_terms; assumption. Qed.
Print Assumptions C12_code_terms_reduce_to_the_forcing_on_laminar_states.

(* when the nonlinear term returns the forcing f on the laminar subspace, every tableau is u' = E u + h phi1(z) f there ... *)
Theorem C12_forced_step : forall (F : FieldT) (I : Type) (h : F) (z E Eh f : I -> F) (N : (I -> F) -> (I -> F)),
  (forall v, Sub F I f v -> forall k, N v k = f k) ->
  forall u, Sub F I f u -> forall k,
    etd1 h z E N u k = E k * u k + h * phi1 (z k) (E k) * f k
    /\ etd2rk h z E N u k = E k * u k + h * phi1 (z k) (E k) * f k
    /\ etd3rk h z E Eh N u k = E k * u k + h * phi1 (z k) (E k) * f k
    /\ etd4rk h z E Eh N u k = E k * u k + h * phi1 (z k) (E k) * f k.
Proof.
  intros F I h z E Eh f N HN u Hu k. splits.
  - apply etd1_forced; assumption.
  - apply etd2rk_forced; assumption.
  - apply etd3rk_forced; assumption.
  - apply etd4rk_forced; assumption.
Qed.
Print Assumptions C12_forced_step.

(* ... and n such steps from rest give f (E^n - 1)/lambda: with E = exp(h lambda) the exact laminar solution of u' = lambda u + f at t = n h *)
Theorem C12_laminar_solution : forall (F : FieldT) (lam h E f : F) (n : nat), lam <> 0 -> h <> 0 ->
  lam_iter F lam h E f n = f * (fpow E n - 1) / lam.
Proof. intros. apply laminar_solution; assumption. Qed.
Print Assumptions C12_laminar_solution.

(* ForcedStepper: zero forcing = the unforced stepper; forcing f = the unforced step of u + dt f *)
Theorem C12_forced_stepper : forall (F : FieldT) (I : Type) (dt : F) (step : (I -> F) -> (I -> F)),
  (forall u v, (forall k, u k = v k) -> forall k, step u k = step v k) ->
  forall u f k, forced_step F I dt step u (fun _ => 0) k = step u k
             /\ forced_step F I dt step u f k = step (fun j => u j + dt * f j) k.
Proof. intros F I dt step Hext u f k. split; [apply forced_zero; exact Hext | reflexivity]. Qed.
Print Assumptions C12_forced_stepper.

(* non-vacuity of the source tie: the regenerated 2D forcing array evaluated over the rationals (pi := 1, L = 2, gamma = 1, N = 8, forcing
   mode 2): -(2 pi / L) k gamma N (N / 2) = -64 at the stored index (0, 2), 0 next to it *)
From Coq Require Import Qcanon.
Example C12_ex_regenerated_injection :
  this (gen_injection2d QcField (Q2Qc 1) (Q2Qc 2) (Q2Qc 1) 8 2 [0; 2]%Z) = (-64 # 1)%Q
  /\ this (gen_injection2d QcField (Q2Qc 1) (Q2Qc 2) (Q2Qc 1) 8 2 [1; 2]%Z) = (0 # 1)%Q.
Proof. split; vm_compute; reflexivity. Qed.
