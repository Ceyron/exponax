(* C06 — results are invariant under jit, vmap and scan composition.   PARTIAL (see the end of this header).

   Full statement: for every public stepper class, compiling a stepper or any rollout of it (eqx.filter_jit), mapping it
   over a batch of states (jax.vmap), or constructing a batch of steppers over a parameter grid (eqx.filter_vmap) gives the
   same numbers as the eager, one-at-a-time evaluation; each batch member's result depends only on that member; and mapping a
   rollout equals rolling out the mapped stepper with batch and time axes exchanged.

   What is proved here.
   (1) The combinator laws, for every state type A (pytrees included), every stepper f : A -> A, every parameterised family
       step : P -> A -> A, every n, every batch — under the contracts of the JAX transformations stated in
       Utils/Combinators.v (vmap f = map f, jit f = f, scan = fold (Utils/Rollout.v), swapaxes = transpose).
   (2) About the code itself: the table Gen/Branches.v, regenerated from the exponax sources on every run by
       harness/translate/branches.py, lists every Python-level test reachable from every exported stepper class; no test on a
       call path (__call__/step/step_fourier, the ETDRK step_fourier methods, the nonlinear functions' __call__ and their
       helpers) is value-dependent, and every value-dependent test on a constructor path is guarded by
       isinstance(<operand>, (int, float)), so that a traced value never reaches it.

   What is NOT proved (the partial part): that jax.jit / jax.vmap / eqx.filter_vmap / jax.lax.scan satisfy these contracts on
   the exponax steppers (tracer leaks, concretisation inside library calls, XLA fusion changing rounding, weak-type promotion)
   and that the guarded constructor branches choose numerically equivalent variants.  That part is decided on the real code by
   the correspondence and witness sweeps of harness/props/c06.py (every exported class x {eager, filter_jit} x {single, vmap,
   filter_vmap over every float/array constructor parameter} x rollout/repeat nesting orders). *)
From Coq Require Import List Bool.
From EXV Require Import Utils.Rollout Utils.RolloutProofs Utils.Combinators Utils.CombinatorsProofs.
From EXV Require Import Utils.BranchTable Utils.BranchTableProofs Gen.Branches.
Import ListNotations.

(* batch independence: member i of the mapped result is f of member i, whatever the other members are *)
Theorem C06_batch_independence : forall (A B : Type) (f : A -> B) (us : list A) (i : nat),
  nth_error (vmap f us) i = option_map f (nth_error us i) /\
  length (vmap f us) = length us /\
  forall vs, nth_error us i = nth_error vs i -> nth_error (vmap f us) i = nth_error (vmap f vs) i.
Proof.
  intros A B f us i. split; [apply vmap_nth|]. split; [apply vmap_length|].
  intros vs H. apply vmap_member_only. exact H.
Qed.
Print Assumptions C06_batch_independence.

(* replacing one member of the batch replaces exactly that member of the result *)
Theorem C06_change_one_member : forall (A B : Type) (f : A -> B) (i : nat) (x : A) (us : list A),
  vmap f (upd i x us) = upd i (f x) (vmap f us) /\
  (forall j, i <> j -> nth_error (vmap f (upd i x us)) j = nth_error (vmap f us) j) /\
  (i < length us -> nth_error (vmap f (upd i x us)) i = Some (f x)).
Proof.
  intros A B f i x us. split; [apply vmap_upd|]. split.
  - intros j H. rewrite vmap_upd. apply upd_nth_other. exact H.
  - intros H. rewrite vmap_upd. apply upd_nth_same. rewrite vmap_length. exact H.
Qed.
Print Assumptions C06_change_one_member.

(* mapping a rollout = rolling out the mapped stepper with batch and time axes exchanged *)
Theorem C06_rollout_vmap_commute : forall (A : Type) (f : A -> A) (n : nat) (include_init : bool) (us : list A),
  vmap (rollout f n include_init) us = transpose (length us) (rollout (vmap f) n include_init us).
Proof. exact rollout_vmap_commute. Qed.
Print Assumptions C06_rollout_vmap_commute.

(* [transpose] is the exchange of the two leading axes: entry (j, t) of the result is entry (t, j) of the argument *)
Theorem C06_transpose_exchanges_axes : forall (A : Type) (w : nat) (rows : list (list A)) (j t : nat),
  Forall (fun r => length r = w) rows ->
  at2 (transpose w rows) j t = at2 rows t j /\ length (transpose w rows) = w.
Proof. intros A w rows j t H. split; [apply transpose_at2 | apply transpose_length]; exact H. Qed.
Print Assumptions C06_transpose_exchanges_axes.

(* the same, entry by entry and without [transpose]: (member j, time t) on the left is (time t, member j) on the right,
   and it is the (t+1)-fold application of f to member j alone *)
Theorem C06_rollout_vmap_entries : forall (A : Type) (f : A -> A) (n : nat) (include_init : bool) (us : list A) (j t : nat),
  at2 (vmap (rollout f n include_init) us) j t = at2 (rollout (vmap f) n include_init us) t j /\
  (t < n -> at2 (rollout (vmap f) n false us) t j = option_map (iter (S t) f) (nth_error us j)).
Proof. intros. split; [apply rollout_vmap_entry | apply rollout_vmap_member]. Qed.
Print Assumptions C06_rollout_vmap_entries.

(* the same for repeat *)
Theorem C06_repeat_vmap_commute : forall (A : Type) (f : A -> A) (n : nat) (us : list A),
  vmap (repeat_fn f n) us = repeat_fn (vmap f) n us /\
  forall i, nth_error (repeat_fn (vmap f) n us) i = option_map (iter n f) (nth_error us i).
Proof.
  intros A f n us. split; [apply repeat_vmap_commute|].
  intros i. rewrite <- repeat_vmap_commute, vmap_nth.
  destruct (nth_error us i); [cbn; rewrite repeat_spec|]; reflexivity.
Qed.
Print Assumptions C06_repeat_vmap_commute.

(* a batch of steppers over a parameter grid is the batch of the one-at-a-time steppers *)
Theorem C06_stepper_family : forall (A P : Type) (step : P -> A -> A) (ps : list P) (u : A) (i : nat),
  family_apply step ps u = map (fun p => step p u) ps /\
  nth_error (family_apply step ps u) i = option_map (fun p => step p u) (nth_error ps i).
Proof. intros. split; [apply family_apply_spec | apply family_apply_nth]. Qed.
Print Assumptions C06_stepper_family.

(* ... also when every member has its own state, and through rollout (axes exchanged) and repeat *)
Theorem C06_stepper_family_rollout : forall (A P : Type) (step : P -> A -> A) (n : nat) (include_init : bool)
    (ps : list P) (us : list A),
  length ps = length us ->
  vmap2 (fun p u => rollout (step p) n include_init u) ps us
    = transpose (length us) (rollout (vmap2 step ps) n include_init us) /\
  vmap2 (fun p u => repeat_fn (step p) n u) ps us = repeat_fn (vmap2 step ps) n us /\
  forall i, nth_error (vmap2 step ps us) i =
            match nth_error ps i, nth_error us i with Some p, Some u => Some (step p u) | _, _ => None end.
Proof.
  intros A P step n b ps us H. split; [apply family_rollout_commute; exact H|].
  split; [apply family_repeat_commute; exact H | intros i; apply vmap2_nth].
Qed.
Print Assumptions C06_stepper_family_rollout.

(* jit is transparent and scan is the loop: a compiled rollout of a compiled stepper is the naive eager loop *)
Theorem C06_jit_scan_transparent : forall (A : Type) (f : A -> A) (n : nat) (u0 : A),
  jit (rollout (jit f) n false) u0 = map (fun k => iter (S k) f u0) (seq 0 n) /\
  jit (rollout (jit f) n true) u0 = u0 :: map (fun k => iter (S k) f u0) (seq 0 n) /\
  jit (repeat_fn (jit f) n) u0 = iter n f u0 /\
  forall us, jit (vmap (jit f)) us = map f us.
Proof.
  intros A f n u0. unfold jit. split; [apply rollout_unfold|].
  split; [rewrite rollout_init, rollout_unfold; reflexivity|].
  split; [apply repeat_spec | reflexivity].
Qed.
Print Assumptions C06_jit_scan_transparent.

Theorem C06_call_path_branches_static : forall b, In b branches -> b_call b = true -> b_vd b = false.
Proof. apply call_static_sound. vm_compute. reflexivity. Qed.
Print Assumptions C06_call_path_branches_static.

Theorem C06_ctor_value_branches_guarded : forall b, In b branches -> b_call b = false -> b_vd b = true -> b_guarded b = true.
Proof. apply ctor_guarded_sound. vm_compute. reflexivity. Qed.
Print Assumptions C06_ctor_value_branches_guarded.

(* in terms of the (class, location, value_dependent) table: every value-dependent entry is a guarded constructor branch *)
Theorem C06_branch_table_value_dependent_entries : forall c l,
  In (c, l, true) branch_table ->
  exists b, In b branches /\ b_cls b = c /\ b_loc b = l /\ b_call b = false /\ b_guarded b = true.
Proof.
  (* branch_table is opened in the goal, not in H: checking H against the opened form makes the kernel evaluate both tables *)
  unfold branch_table. intros c l H. apply in_map_iff in H. destruct H as [b [E Hb]].
  unfold triple_of in E. injection E as E1 E2 E3. exists b.
  assert (Hc : b_call b = false).
  { destruct (b_call b) eqn:Hc; [|reflexivity].
    rewrite (C06_call_path_branches_static b Hb Hc) in E3. discriminate E3. }
  split; [exact Hb|]. split; [exact E1|]. split; [exact E2|]. split; [exact Hc|].
  apply (C06_ctor_value_branches_guarded b Hb Hc E3).
Qed.
Print Assumptions C06_branch_table_value_dependent_entries.

(* the table is not vacuous: every exported class has recorded tests on its call path and on its constructor path, and
   no index of the generated file dangles *)
Theorem C06_every_class_covered : forall c, In c stepper_classes ->
  (exists b, In b branches /\ b_cls b = c /\ b_call b = true) /\
  (exists b, In b branches /\ b_cls b = c /\ b_call b = false) /\
  (exists ids, In (c, ids) class_tests /\ forall i, In i ids -> i < length tests).
Proof.
  apply (class_covered_sound tests class_tests). vm_compute. reflexivity.
Qed.
Print Assumptions C06_every_class_covered.

(* The property under the contracts (partial: the contracts themselves are checked on the real code, not proved):
   a batch of steppers over a parameter grid, rolled out under jit and vmap in either nesting order, equals the eager
   one-at-a-time loops, member by member. *)
Theorem C06_invariance_under_contracts_partial : forall (A P : Type) (step : P -> A -> A) (n : nat) (ps : list P) (us : list A),
  length ps = length us ->
  forall j t, t < n ->
    at2 (jit (rollout (jit (vmap2 step ps)) n false) us) t j
    = match nth_error ps j, nth_error us j with Some p, Some u => Some (iter (S t) (step p) u) | _, _ => None end
    /\ at2 (jit (vmap2 (fun p u => rollout (step p) n false u) ps) us) j t
       = at2 (jit (rollout (jit (vmap2 step ps)) n false) us) t j.
Proof.
  intros A P step n ps us H j t Ht. unfold jit.
  assert (E : at2 (rollout (vmap2 step ps) n false us) t j
              = match nth_error ps j, nth_error us j with Some p, Some u => Some (iter (S t) (step p) u) | _, _ => None end).
  { rewrite (memberwise_entry (vmap2 step ps) us (combine ps us) _ (fun k => iter_vmap2 step k ps us H) j Ht), nth_error_combine.
    destruct (nth_error ps j), (nth_error us j); reflexivity. }
  split; [exact E|].
  rewrite (family_rollout_commute step n false ps us H).
  apply transpose_at2, family_rollout_rows, H.
Qed.
Print Assumptions C06_invariance_under_contracts_partial.

Example C06_ex_commute :
  vmap (rollout (fun u => 2 * u + 1) 3 true) [5; 7] = [[5; 11; 23; 47]; [7; 15; 31; 63]]
  /\ rollout (vmap (fun u => 2 * u + 1)) 3 true [5; 7] = [[5; 7]; [11; 15]; [23; 31]; [47; 63]]
  /\ transpose 2 [[5; 7]; [11; 15]; [23; 31]; [47; 63]] = [[5; 11; 23; 47]; [7; 15; 31; 63]].
Proof. repeat split; reflexivity. Qed.
Example C06_ex_empty_time_axis : transpose 3 (rollout (vmap S) 0 false [1; 2; 3]) = [[]; []; []].
Proof. reflexivity. Qed.
Example C06_ex_family :
  vmap2 (fun p u => rollout (fun x => p * x) 2 false u) [2; 3] [1; 10] = [[2; 4]; [30; 90]]
  /\ transpose 2 (rollout (vmap2 (fun p x => p * x) [2; 3]) 2 false [1; 10]) = [[2; 4]; [30; 90]].
Proof. split; reflexivity. Qed.
Example C06_ex_table : Nat.leb 36 (length stepper_classes) && Nat.leb 300 (length branches) = true.
Proof. vm_compute. reflexivity. Qed.
