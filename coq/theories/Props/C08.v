(* C08 — steppers commute with the symmetries of the periodic box.
   Translation by whole grid cells = multiplication of mode k by a character chi(k) (shift theorem); the pseudo-spectral products, the
   scalar terms built from them (three representatives are proved, not every term) and every ETDRK order commute with this twist, for ALL
   states.  Axis permutations and the embedding of 1-D states: for the generic symbol and the convection / gradient-norm terms only; NOT
   proved: a whole stepper under a permutation or an embedding, and the restriction of the translations for Kolmogorov forcing (these are
   checked on the real code for every exported class by harness/props/c08.py).
   Models: DFT/DFT1.v, Nonlin/Conv.v, Nonlin/Terms.v, Gen/ETDRK.v (translated), Spectral/Symbols.v. *)
From Coq Require Import ZArith List Lia.
From EXV Require Import Base.FieldLemmas Base.Scalar Spectral.Symbols DFT.DFT1 Nonlin.Conv Nonlin.Terms Gen.ETDRK Steppers.Symmetry Nonlin.Permute.
From Coq Require Import Permutation.
Import ListNotations.
Local Open Scope fld_scope.

(* shift theorem: rolling a state by s grid cells multiplies mode k by w'^(s k) *)
Theorem C08_shift_theorem : forall (F : FieldT) (n : nat) (w w' : F),
  (0 < n)%nat -> fpow w n = 1 -> (forall m, (0 < m < n)%nat -> fpow w m <> 1) -> w * w' = 1 ->
  forall (u : nat -> F) (s k : nat), (s < n)%nat ->
  dft n w (fun j => u ((j + s) mod n)%nat) k = fpow w' (s * k) * dft n w u k.
Proof. intros F n w w' Hn H1 H2 H3 u s k Hs. apply (dft_shift F n w w'); assumption. Qed.
Print Assumptions C08_shift_theorem.

(* the pseudo-spectral products commute with the character twist, hence so do the nonlinear terms (representatives: both single-channel
   convection forms and the gradient norm; the other terms are the same combinators of P2/P3 and diagonal multipliers).  The premise
   chi = 1 at the mean mode of the gradient-norm clause is not used by the proof *)
Theorem C08_products_and_terms_commute_with_translations : forall (F : FieldT) (D : nat) (N Kc : Z) (chi : idx -> F),
  (forall k m, chi m * chi (wrapD N (subi k m)) = chi k) ->
  (forall k m1 m2, chi m1 * (chi m2 * chi (wrapD N (subi (subi k m1) m2))) = chi k) ->
  forall (U V W : field F) (ii s b : F) (zf : bool) (k : idx),
  prod2 F D N Kc (twist F chi U) (twist F chi V) k = chi k * prod2 F D N Kc U V k
  /\ prod3 F D N Kc (twist F chi U) (twist F chi V) (twist F chi W) k = chi k * prod3 F D N Kc U V W k
  /\ conv_sc_cons F (prod2 F D N Kc) ii s D b (twist F chi U) k = chi k * conv_sc_cons F (prod2 F D N Kc) ii s D b U k
  /\ conv_sc_noncons F (prod2 F D N Kc) ii s D b (twist F chi U) k = chi k * conv_sc_noncons F (prod2 F D N Kc) ii s D b U k
  /\ ((is_zero k = true -> chi k = 1) ->
       gradient_norm F (prod2 F D N Kc) ii s D b zf (twist F chi U) k = chi k * gradient_norm F (prod2 F D N Kc) ii s D b zf U k).
Proof.
  intros F D N Kc chi H2 H3 U V W ii s b zf k. splits.
  - apply prod2_twist; assumption.
  - apply prod3_twist; assumption.
  - apply conv_sc_cons_twist; assumption.
  - apply conv_sc_noncons_twist; assumption.
  - intros _. apply gradient_norm_twist; assumption.
Qed.
Print Assumptions C08_products_and_terms_commute_with_translations.

(* every ETDRK order (stage programs translated from the source) commutes with any mode-wise multiplier the nonlinear term commutes with *)
Theorem C08_steps_commute_with_translations : forall (F : FieldT) (I : Type) (tau E Eh c1 c2 c3 c4 c5 c6 : I -> F) (N : (I -> F) -> (I -> F)),
  (forall u v, (forall k, u k = v k) -> forall k, N u k = N v k) ->
  (forall u k, N (tw F I tau u) k = tau k * N u k) ->
  forall u k,
    etdrk0_step F E (tw F I tau u) k = tau k * etdrk0_step F E u k
    /\ etdrk1_step F E c1 N (tw F I tau u) k = tau k * etdrk1_step F E c1 N u k
    /\ etdrk2_step F E c1 c2 N (tw F I tau u) k = tau k * etdrk2_step F E c1 c2 N u k
    /\ etdrk3_step F E Eh c1 c2 c3 c4 c5 N (tw F I tau u) k = tau k * etdrk3_step F E Eh c1 c2 c3 c4 c5 N u k
    /\ etdrk4_step F E Eh c1 c2 c3 c4 c5 c6 N (tw F I tau u) k = tau k * etdrk4_step F E Eh c1 c2 c3 c4 c5 c6 N u k.
Proof.
  intros F I tau E Eh c1 c2 c3 c4 c5 c6 N Next Heq u k. splits.
  - apply etdrk0_equivariant.
  - apply etdrk1_equivariant; assumption.
  - apply etdrk2_equivariant; assumption.
  - apply etdrk3_equivariant; assumption.
  - apply etdrk4_equivariant; assumption.
Qed.
Print Assumptions C08_steps_commute_with_translations.

(* isotropy: the generic symbol is invariant under permutations of the axes; a state constant along all but one axis sees the 1-D
   symbol with the zeroth-order coefficient multiplied by D (the documented '1.grad^0'); the bound on length a is not used by the proof *)
Theorem C08_isotropy_and_embedding : forall (F : FieldT) (a0 : F) (a : list F) (x y z : F), (length a <= 4)%nat ->
  poly_sym F (a0 :: a) [x; y] = poly_sym F (a0 :: a) [y; x]
  /\ poly_sym F (a0 :: a) [x; y; z] = poly_sym F (a0 :: a) [y; z; x] /\ poly_sym F (a0 :: a) [x; y; z] = poly_sym F (a0 :: a) [y; x; z]
  /\ poly_sym F (a0 :: a) [x; 0] = poly_sym F (fz 2 * a0 :: a) [x] /\ poly_sym F (a0 :: a) [0; x] = poly_sym F (fz 2 * a0 :: a) [x]
  /\ poly_sym F (a0 :: a) [x; 0; 0] = poly_sym F (fz 3 * a0 :: a) [x] /\ poly_sym F (a0 :: a) [0; x; 0] = poly_sym F (fz 3 * a0 :: a) [x]
  /\ poly_sym F (a0 :: a) [0; 0; x] = poly_sym F (fz 3 * a0 :: a) [x].
Proof.
  intros F a0 a x y z _. repeat split.
  - apply poly_sym_perm, perm_swap.
  - apply poly_sym_perm. apply (Permutation_cons_append [y; z] x).
  - apply poly_sym_perm, perm_swap.
  - apply (poly_sym_embed F a0 a x 1). reflexivity.
  - apply (poly_sym_embed F a0 a x 1). apply perm_swap.
  - apply (poly_sym_embed F a0 a x 2). reflexivity.
  - apply (poly_sym_embed F a0 a x 2). apply perm_swap.
  - apply (poly_sym_embed F a0 a x 2). apply Permutation_sym, (Permutation_cons_append [0; 0] x).
Qed.
Print Assumptions C08_isotropy_and_embedding.

(* axis permutations: re-labelling the axes of the spectrum (sigma = permi p, p any permutation of the axes) commutes with the pseudo-spectral
   product and with the isotropic scalar terms (both single-channel convection forms, the gradient norm with and without the mean fix):
   the term of the permuted field is the permuted term - every D, N, band, every state, every stored mode *)
Theorem C08_terms_commute_with_axis_permutations : forall (F : FieldT) (D : nat) (N Kc : Z) (p : list nat) (ii s b : F) (zf : bool),
  (0 < N)%Z -> (0 <= Kc)%Z -> Permutation p (seq 0 D) ->
  forall (u v : field F) (k : idx), length k = D ->
  prod2 F D N Kc (relabel F p u) (relabel F p v) k = prod2 F D N Kc u v (permi p k)
  /\ conv_sc_cons F (prod2 F D N Kc) ii s D b (relabel F p u) k = conv_sc_cons F (prod2 F D N Kc) ii s D b u (permi p k)
  /\ conv_sc_noncons F (prod2 F D N Kc) ii s D b (relabel F p u) k = conv_sc_noncons F (prod2 F D N Kc) ii s D b u (permi p k)
  /\ gradient_norm F (prod2 F D N Kc) ii s D b zf (relabel F p u) k = gradient_norm F (prod2 F D N Kc) ii s D b zf u (permi p k).
Proof.
  intros F D N Kc p ii s b zf HN HK Hp u v k Hl. splits.
  - apply (prod2_relabel F D N Kc HN p Hp u (relabel F p u) v (relabel F p v) k Hl); reflexivity.
  - apply conv_sc_cons_relabel; assumption.
  - apply conv_sc_noncons_relabel; assumption.
  - apply gradient_norm_relabel; assumption.
Qed.
Print Assumptions C08_terms_commute_with_axis_permutations.

(* ... and for the single-channel terms AS REGENERATED FROM THE SOURCE (Gen/NonlinFuns.v, harness/translate/nonlin.py, tied in Tie/NonlinTie.v)
   with the concrete mask and pseudo-spectral product: the source text of the single-channel convection (both forms) and of the gradient norm
   commutes with every re-labelling of the axes, in any dimension *)
From EXV Require Import Gen.NonlinFuns Tie.NonlinTie.
Theorem C08_code_terms_commute_with_axis_permutations : forall (F : FieldT) (D : nat) (N Kc : Z) (p : list nat) (ii s ND b : F) (zf : bool),
  (0 < N)%Z -> (0 <= Kc)%Z -> Permutation p (seq 0 D) ->
  forall (u : field F) (k : idx), length k = D ->
  let M := msk F Kc in let P2 := prod2 F D N Kc in let P3 := prod3 F D N Kc in
  nth 0 (gen_convection F M P2 P3 ii s D ND b true true [relabel F p u]) (fzero F) k
    = nth 0 (gen_convection F M P2 P3 ii s D ND b true true [u]) (fzero F) (permi p k)
  /\ nth 0 (gen_convection F M P2 P3 ii s D ND b true false [relabel F p u]) (fzero F) k
    = nth 0 (gen_convection F M P2 P3 ii s D ND b true false [u]) (fzero F) (permi p k)
  /\ gen_gradient_norm F M P2 P3 ii s D ND b zf (relabel F p u) k = gen_gradient_norm F M P2 P3 ii s D ND b zf u (permi p k).
Proof.
  intros F D N Kc p ii s ND b zf HN HK Hp u k Hl M P2 P3. unfold M, P2, P3. splits.
  - rewrite !convection_sc_cons_tie. cbn [nth]. apply conv_sc_cons_relabel; assumption.
  - rewrite !convection_sc_noncons_tie. cbn [nth]. apply conv_sc_noncons_relabel; assumption.
  - rewrite !gradient_norm_tie. apply gradient_norm_relabel; assumption.
Qed.
Print Assumptions C08_code_terms_commute_with_axis_permutations.

(* vector-valued (multi-channel) convection, both forms: when u' is the velocity field seen in the permuted frame - channel i of u' at the
   re-labelled wavenumber is channel p_i of u - the term of u' is the term of u in the permuted frame: channels are permuted along with the axes *)
Theorem C08_vector_convection_commutes_with_axis_permutations : forall (F : FieldT) (D : nat) (N Kc : Z) (p : list nat) (ii s b : F),
  (0 < N)%Z -> (0 <= Kc)%Z -> Permutation p (seq 0 D) ->
  forall (u u' : list (field F)) (i : nat) (k : idx), permuted_frame F D p u u' -> (i < D)%nat -> length k = D ->
  nth i (conv_mc_cons F (prod2 F D N Kc) ii s D b u') (fzero F) (permi p k) = nth (nth i p 0%nat) (conv_mc_cons F (prod2 F D N Kc) ii s D b u) (fzero F) k
  /\ nth i (conv_mc_noncons F (prod2 F D N Kc) ii s D b u') (fzero F) (permi p k)
     = nth (nth i p 0%nat) (conv_mc_noncons F (prod2 F D N Kc) ii s D b u) (fzero F) k.
Proof.
  intros F D N Kc p ii s b HN HK Hp u u' i k HF Hi Hl. split.
  - apply conv_mc_cons_frame; assumption.
  - apply conv_mc_noncons_frame; assumption.
Qed.
Print Assumptions C08_vector_convection_commutes_with_axis_permutations.

(* non-vacuity: in 2D with the axis swap p = [1; 0], u' = (u_1 o sigma, u_0 o sigma) is the field in the permuted frame *)
Example C08_permuted_frame_exists : forall (F : FieldT) (u0 u1 : field F),
  permuted_frame F 2 [1; 0]%nat [u0; u1] [relabel F [1; 0]%nat u1; relabel F [1; 0]%nat u0].
Proof.
  intros F u0 u1. split; [reflexivity | split; [reflexivity|]]. intros i x Hi Hx.
  destruct x as [|a [|b [|]]]; try discriminate. destruct i as [|[|i]]; [reflexivity | reflexivity | lia].
Qed.
