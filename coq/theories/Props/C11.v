(* C11 — dissipative and dispersive linear steppers never amplify any state.
   Complex numbers over an ordered field F (the order enters as premises: reflexive, transitive (not used), compatible with + and with
   products of non-negatives, squares non-negative).  Symbols: Spectral/Symbols.v (tied to the code by the exact correspondence of C01).
   exp enters only through |exp(dt lambda)|^2 <= 1 for Re(dt lambda) <= 0 and = 1 for Re = 0 (property of the real exponential),
   which is the premise on the propagator E below. *)
From Coq Require Import QArith List.
From EXV Require Import Base.Scalar Base.FieldLemmas Base.Cplx Spectral.Symbols Spectral.RealSymbols Steppers.NonAmplification IC.Normalize
  Metrics.ParsevalRealD Steppers.L2Stability.
Import ListNotations.
Local Open Scope fld_scope.

Definition OrderLaws (F : FieldT) (le : F -> F -> Prop) : Prop :=
  (forall x, le x x) /\ (forall x y z, le x y -> le y z -> le x z) /\ (forall x y z t, le x y -> le z t -> le (x + z) (y + t))
  /\ (forall x y, le 0 x -> le 0 y -> le 0 (x * y)) /\ (forall x, le 0 (x * x)).

(* real parts of the symbols: advection and dispersion are purely imaginary (norm preserved), diffusion and hyper-diffusion are
   real and non-positive for non-negative coefficients (norm not increased), for real wavenumbers kappa in any dimension *)
Theorem C11_real_parts_of_symbols : forall (F : FieldT) (le : F -> F -> Prop), OrderLaws F le ->
  forall (v kap : list F) (nu mu : F), le 0 nu -> le 0 mu ->
  re (gip_sym (COps F) (map cofr v) 1 (dreal F kap)) = 0 /\ re (gip_sym (COps F) (map cofr v) 3 (dreal F kap)) = 0
  /\ laplace_sym (COps F) 2 (dreal F kap) = cofr (- fsum (map (fun x => x * x) kap))
  /\ laplace_sym (COps F) 4 (dreal F kap) = cofr (fsum (map (fun x => x * x * x * x) kap))
  /\ le 0 (- re (@omul (COps F) (cofr nu) (laplace_sym (COps F) 2 (dreal F kap))))
  /\ le 0 (- re (@omul (COps F) (cofr (- mu)) (laplace_sym (COps F) 4 (dreal F kap)))).
Proof.
  intros F le (H1 & H2 & H3 & H4 & H5) v kap nu mu Hn Hm.
  splits.
  - exact (gip_imaginary_odd F 0 v kap).
  - exact (gip_imaginary_odd F 1 v kap).
  - apply laplace_real_2.
  - apply laplace_real_4.
  - apply (diffusion_symbol_nonpositive F le H1 H3 H4 H5). exact Hn.
  - apply (hyper_diffusion_symbol_nonpositive F le H1 H3 H4 H5). exact Hm.
Qed.
Print Assumptions C11_real_parts_of_symbols.

(* ... and the same for the symbols AS REGENERATED FROM THE SOURCE (Gen/LinOps.v, harness/translate/linops.py; tied to Spectral/Symbols.v in
   Tie/LinOpsTie.v): at the derivative operator i kappa of real wavenumbers, over the complex numbers of a formally real field, the source
   symbols of Advection and Dispersion are purely imaginary and that of HyperDiffusion (mu >= 0) has non-positive real part, in any dimension;
   Diffusion with a scalar nu >= 0 (promoted to the diagonal matrix by the constructor text) likewise (the proof does not use the bound on D) *)
From EXV Require Import Gen.LinOps Tie.NonAmplTie.
Theorem C11_code_symbols_do_not_amplify : forall (F : FieldT) (FR : FormallyReal F) (le : F -> F -> Prop), OrderLaws F le ->
  forall (v xi kap : list F) (nu mu : F), le 0 nu -> le 0 mu ->
  re (gen_sym_advection (CField FR) (map cofr v) (dreal F kap)) = 0
  /\ re (gen_sym_dispersion (CField FR) false (map cofr xi) (dreal F kap)) = 0
  /\ le 0 (- re (gen_sym_hyper_diffusion (CField FR) false (cofr mu) (dreal F kap)))
  /\ ((1 <= length kap <= 3)%nat ->
      le 0 (- re (gen_sym_diffusion (CField FR) (gen_ctor_diffusion_diffusivity_scalar (CField FR) (cofr nu) (dreal F kap)) (dreal F kap)))).
Proof.
  intros F FR le (H1 & H2 & H3 & H4 & H5) v xi kap nu mu Hn Hm. splits.
  - apply code_advection_imaginary.
  - apply code_dispersion_imaginary.
  - apply (code_hyper_diffusion_nonpositive F FR le H1 H3 H4 H5); exact Hm.
  - intros _. apply (code_diffusion_nonpositive F FR le H1 H3 H4 H5). exact Hn.
Qed.
Print Assumptions C11_code_symbols_do_not_amplify.

(* no mode grows: |E u|^2 <= |u|^2 when |E|^2 <= 1, equality when |E|^2 = 1; the Parseval-weighted sum over all modes (the squared
   L2 norm of ANY state, Nyquist content and white noise included) does not grow; the real inverse transform only contracts *)
Theorem C11_no_amplification : forall (F : FieldT) (le : F -> F -> Prop), OrderLaws F le ->
  (forall (E u : cx F), le 0 (1 - cnorm2 E) -> le (cnorm2 (cmul E u)) (cnorm2 u))
  /\ (forall (E u : cx F), cnorm2 E = 1 -> cnorm2 (cmul E u) = cnorm2 u)
  /\ (forall (w : list F) (E u : list (cx F)), Forall (fun x => le 0 x) w -> Forall (fun e => le 0 (1 - cnorm2 e)) E ->
        le (fsum (map2 (fun wk p => wk * cnorm2 (cmul (fst p) (snd p))) w (combine E u)))
           (fsum (map2 (fun wk p => wk * cnorm2 (snd p)) w (combine E u))))
  /\ (forall c : cx F, le (cnorm2 (cofr (re c))) (cnorm2 c)).
Proof.
  intros F le (H1 & H2 & H3 & H4 & H5). splits.
  - intros E u H. apply (mode_not_amplified F le H1 H3 H4 H5). exact H.
  - intros E u H. apply mode_norm_preserved. exact H.
  - intros w E u Hw HE. apply (weighted_sum_not_amplified F le H1 H3 H4 H5); assumption.
  - intros c. apply (real_part_contracts F le H1 H3 H5).
Qed.
Print Assumptions C11_no_amplification.

(* wave stepper: with the exact-solution form of a mode (C01_wave_exact), cos^2 + sin^2 = 1, the wave energy |v|^2 + (c rho)^2 |h|^2 is conserved *)
Theorem C11_wave_energy_conserved : forall (F : FieldT) (Cc Ss cr : F) (h v : cx F), Cc * Cc + Ss * Ss = 1 -> cr <> 0 ->
  let h' := cadd (cscal Cc h) (cscal (Ss / cr) v) in
  let v' := cadd (cscal (- (cr * Ss)) h) (cscal Cc v) in
  cnorm2 v' + cr * cr * cnorm2 h' = cnorm2 v + cr * cr * cnorm2 h.
Proof. intros. apply wave_energy_conserved; assumption. Qed.
Print Assumptions C11_wave_energy_conserved.

(* END TO END, every dimension: a step that multiplies every stored mode of a real field by a factor of modulus <= 1 (and returns a real
   field) does not increase the discrete L2 norm; modulus one preserves it.  n^(D+1) is the positive constant of Parseval's identity. *)
Theorem C11_l2_norm_not_amplified : forall (F : FieldT) (FR : FormallyReal F) (le : F -> F -> Prop), OrderLaws F le ->
  forall (n : nat) (w : cx F), (0 < n)%nat ->
  @fpow (CField FR) w n = c1 F -> (forall m, (0 < m < n)%nat -> @fpow (CField FR) w m <> c1 F) -> cmul w (cconj w) = c1 F ->
  forall (D : nat) (u v : list nat -> F) (E : list nat -> cx F),
  (forall lead b, In lead (gridD D n) -> (b < n / 2 + 1)%nat ->
     rdftD F n w (S D) v (lead ++ [b]) = cmul (E (lead ++ [b])) (rdftD F n w (S D) u (lead ++ [b]))) ->
  ((forall k, le 0 (1 - cnorm2 (E k))) ->
     le (npts F (S D) n * sumD F (S D) n (fun j => v j * v j)) (npts F (S D) n * sumD F (S D) n (fun j => u j * u j)))
  /\ ((forall k, cnorm2 (E k) = 1) ->
     npts F (S D) n * sumD F (S D) n (fun j => v j * v j) = npts F (S D) n * sumD F (S D) n (fun j => u j * u j)).
Proof.
  intros F FR le (L1 & L2 & L3 & L4 & L5) n w Hn H1 H2 H3 D u v E Hv. split; intros HE.
  - apply (l2_norm_not_amplified F FR le L1 L3 L4 L5 n w Hn H1 H2 H3 D u v E Hv HE).
  - apply (l2_norm_preserved F FR n w Hn H1 H2 H3 D u v E Hv HE).
Qed.
Print Assumptions C11_l2_norm_not_amplified.

(* the premises are satisfiable: the rationals with their usual order *)
From Coq Require Import Qcanon.
Example C11_ex_order_laws : OrderLaws QcField Qcle.
Proof.
  repeat split.
  - apply Qcle_refl.
  - intros x y z. apply Qcle_trans.
  - intros x y z t. apply Qcplus_le_compat.
  - intros x y Hx Hy. change (0 <= x * y)%Qc. replace 0%Qc with (0 * y)%Qc by ring. apply Qcmult_le_compat_r; assumption.
  - exact Qc_sq_nonneg.
Qed.
