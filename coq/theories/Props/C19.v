(* C19 — Steps stay finite and precision-faithful across stiffness and dtype.   PARTIAL.
   Subject: Gen/ETDRK.v (regenerated on every run from exponax/etdrk/*.py) and ETDRK/Contour.v.
   What an exact-arithmetic model can say, and what is proved here for every field of characteristic 0
   (complex numbers over any formally real field for the statements about the axes):
     (a) the coefficient closed forms divide by nothing but powers of lr = z + r w_j; run with a partial division
         (x/0 = error) the generated integrands return a value iff lr <> 0;
     (b) lr <> 0 for every real symbol z (M even) and every purely imaginary symbol z (4 | M, the code's M = 16),
         because the contour points are the half-shifted roots, w_j^M = -1 (C19_contour_points_are_roots_of_minus_one,
         from the exponent identity C02_contour_half_shifted);
     (c) the stage programs of orders 0-4 map the zero state to zero when N(0) = 0, for ARBITRARY coefficient arrays
         (finite or not in floating point: this is the algebraic identity), and to the stated combination of the
         forcing otherwise; with the closed-form coefficients and a state-independent forcing f the result is
         h phi_1(z) f, the exact forced solution, at every order;
     (d) lambda = 0: partial, see C19_lambda_zero_partial.
   What it cannot say (decided on the real code by harness/props/c19.py in a float32 and a float64 process):
   overflow of intermediates such as lr^3 or exp(lr) for |z| up to 1e15, XLA's complex division / exp / integer power,
   dtype promotion, and the float32-vs-float64 distance of a step.  The statement of DESIGN.md `coef_bounded`
   (|c_{p,j}| <= B(|z|) over R for Re z <= 0) is NOT proved: it needs |exp(lr)| <= exp(r), i.e. real analysis.
   All theorems are closed under the global context (no axioms).  Coq's classical reals appear ONLY in two non-vacuity Examples at
   the end (a primitive 8th root of unity and the complex exponential exist in R(i)); Examples are not obligations. *)
From Coq Require Import QArith Qcanon List Lia.
From EXV Require Import Base.Scalar Base.FieldLemmas Base.Cplx ETDRK.Phi ETDRK.Contour ETDRK.ContourProofs Gen.ETDRK.
Import ListNotations.
Local Open Scope fld_scope.

(* (a) every integrand is numerator(lr, e, eh) * (1/lr)^m with a polynomial numerator: only lr is ever inverted *)
Theorem C19_closed_forms_defined : forall (F : FieldT) (lr e eh : F), lr <> 0 ->
  etdrk1_integrand_1 F lr e eh = num_e1 F lr e * inv_pow F lr 1
  /\ etdrk2_integrand_1 F lr e eh = num_e1 F lr e * inv_pow F lr 1
  /\ etdrk2_integrand_2 F lr e eh = num_e2 F lr e * inv_pow F lr 2
  /\ etdrk3_integrand_1 F lr e eh = num_e1 F lr eh * inv_pow F lr 1
  /\ etdrk3_integrand_2 F lr e eh = num_e1 F lr e * inv_pow F lr 1
  /\ etdrk3_integrand_3 F lr e eh = num_a3 F lr e * inv_pow F lr 3
  /\ etdrk3_integrand_4 F lr e eh = fz 4 * num_b3 F lr e * inv_pow F lr 3
  /\ etdrk3_integrand_5 F lr e eh = num_c3 F lr e * inv_pow F lr 3
  /\ etdrk4_integrand_1 F lr e eh = num_e1 F lr eh * inv_pow F lr 1
  /\ etdrk4_integrand_2 F lr e eh = num_e1 F lr eh * inv_pow F lr 1
  /\ etdrk4_integrand_3 F lr e eh = num_e1 F lr eh * inv_pow F lr 1
  /\ etdrk4_integrand_4 F lr e eh = num_a3 F lr e * inv_pow F lr 3
  /\ etdrk4_integrand_5 F lr e eh = num_b3 F lr e * inv_pow F lr 3
  /\ etdrk4_integrand_6 F lr e eh = num_c3 F lr e * inv_pow F lr 3.
Proof.
  intros F lr e eh H.
  (* integrands of different orders with the same text are convertible: see Tie/ETDRKTie.v *)
  splits; [apply (cf_e1 F lr e eh) | apply (cf_e1 F lr e eh) | apply (cf_e2 F lr e eh) | apply (cf_e1 F lr eh e)
          | apply (cf_e1 F lr e eh) | apply (cf_a3 F lr e eh) | apply (cf_4b3 F lr e eh) | apply (cf_c3 F lr e eh)
          | apply (cf_e1 F lr eh e) | apply (cf_e1 F lr eh e) | apply (cf_e1 F lr eh e) | apply (cf_a3 F lr e eh)
          | apply (cf_b3 F lr e eh) | apply (cf_c3 F lr e eh)]; exact H.
Qed.
Print Assumptions C19_closed_forms_defined.

(* (a') the generated integrands executed with partial division: defined (and equal to the field value) iff lr <> 0 *)
Theorem C19_no_division_by_zero : forall (F : FieldT) (lr e eh : F),
  (lr <> 0 -> map (fun g => g (Some lr) (Some e) (Some eh)) (all_integrands (OptOps F))
              = map (fun g => Some (g lr e eh)) (all_integrands F))
  /\ (lr = 0 -> map (fun g => g (Some lr) (Some e) (Some eh)) (all_integrands (OptOps F))
              = map (fun _ => None) (all_integrands F)).
Proof.
  intros F lr e eh. rewrite integrands_eval. split.
  - intros H. rewrite (proj2 (feqb_false F lr 0) H). reflexivity.
  - intros ->. rewrite (feqb_refl F). reflexivity.
Qed.
Print Assumptions C19_no_division_by_zero.

(* (b) general symbols: a contour point can vanish only if z^M = - r^M  (w^M = -1, M even): M isolated bad points *)
Theorem C19_contour_den_zero_only_if : forall (F : FieldT) (z r w : F) (n : nat),
  fpow w (2 * n) = - (1) -> z + r * w = 0 -> fpow z (2 * n) = - fpow r (2 * n).
Proof. exact lr_zero_even. Qed.
Print Assumptions C19_contour_den_zero_only_if.

(* (b) the contour points of the code are M-th roots of -1: w_j = exp(root_arg i pi j M), j = 1..M, for ANY function exp with the
   exponential law and exp(i pi) = -1 (jnp.exp on complex arguments, contract).  This is what ties the hypothesis w^M = -1 of
   the statements below to exponax/etdrk/_utils.roots_of_unity: un-shifting the roots breaks this theorem. *)
Theorem C19_contour_points_are_roots_of_minus_one : forall (F : FieldT) (cexp : F -> F) (ii pi : F),
  (forall a b, cexp (a + b) = cexp a * cexp b) -> cexp 0 = 1 -> cexp (ii * pi) = - (1) ->
  forall j M : nat, (0 < M)%nat -> (1 <= j)%nat ->
    fpow (cexp (root_arg F ii pi (fz (Z.of_nat j)) (fz (Z.of_nat M)))) M = - (1).
Proof. intros F cexp ii pi H1 H2 H3. exact (roots_half_shifted F cexp H1 H2 ii pi H3). Qed.
Print Assumptions C19_contour_points_are_roots_of_minus_one.

(* (b) core statement: z real, r real and non-zero, w^M = -1 with M even  ==>  z + r w <> 0;
       z purely imaginary, 4 | M ==> the same.  (C F = complex numbers over a formally real field F) *)
Theorem C19_contour_den_nonzero_real : forall (F : FieldT) (FR : FormallyReal F) (z r w : CField FR) (n : nat),
  im (z : cx F) = 0 -> im (r : cx F) = 0 -> r <> 0 -> fpow w (2 * n) = - (1) -> z + r * w <> 0.
Proof. exact contour_den_nonzero_real. Qed.
Print Assumptions C19_contour_den_nonzero_real.

Theorem C19_contour_den_nonzero_imag : forall (F : FieldT) (FR : FormallyReal F) (z r w : CField FR) (n : nat),
  re (z : cx F) = 0 -> im (r : cx F) = 0 -> r <> 0 -> fpow w (4 * n) = - (1) -> z + r * w <> 0.
Proof. exact contour_den_nonzero_imag. Qed.
Print Assumptions C19_contour_den_nonzero_imag.

(* (b) on the generated code: real dt, real radius, real lambda (dissipative operators: diffusion, hyper-diffusion, drag, KS,
   Swift-Hohenberg, ...) or purely imaginary lambda (advection, dispersion): the contour point lr of every order is non-zero
   for ANY w with w^M = -1 *)
Theorem C19_lr_nonzero_on_axes : forall (F : FieldT) (FR : FormallyReal F) (dt lam r w : CField FR) (n : nat),
  im (dt : cx F) = 0 -> im (r : cx F) = 0 -> r <> 0 ->
  (im (lam : cx F) = 0 /\ fpow w (2 * n) = - (1)) \/ (re (lam : cx F) = 0 /\ fpow w (4 * n) = - (1)) ->
  etdrk1_lr (CField FR) r w (etdrk1_Ldt (CField FR) dt lam) <> 0
  /\ etdrk2_lr (CField FR) r w (etdrk2_Ldt (CField FR) dt lam) <> 0
  /\ etdrk3_lr (CField FR) r w (etdrk3_Ldt (CField FR) dt lam) <> 0
  /\ etdrk4_lr (CField FR) r w (etdrk4_Ldt (CField FR) dt lam) <> 0.
Proof.
  intros F FR dt lam r w n Hdt Hr Hr0 H.
  (* the lr and Ldt of the four orders have the same text *)
  pose proof (lr_nonzero_on_axes F FR dt lam r w n Hdt Hr Hr0 H) as Hlr. splits; exact Hlr.
Qed.
Print Assumptions C19_lr_nonzero_on_axes.

(* (a)+(b) end to end: on both axes all fourteen coefficient integrands are evaluated without a division by zero *)
Theorem C19_coefficients_defined_on_axes : forall (F : FieldT) (FR : FormallyReal F) (dt lam r w e eh : CField FR) (n : nat),
  im (dt : cx F) = 0 -> im (r : cx F) = 0 -> r <> 0 ->
  (im (lam : cx F) = 0 /\ fpow w (2 * n) = - (1)) \/ (re (lam : cx F) = 0 /\ fpow w (4 * n) = - (1)) ->
  let lr := etdrk4_lr (CField FR) r w (etdrk4_Ldt (CField FR) dt lam) in
  map (fun g => g (Some lr) (Some e) (Some eh)) (all_integrands (OptOps (CField FR)))
  = map (fun g => Some (g lr e eh)) (all_integrands (CField FR)).
Proof.
  intros F FR dt lam r w e eh n Hdt Hr Hr0 H lr. rewrite integrands_eval, (proj2 (feqb_false (CField FR) lr 0)); [reflexivity|].
  exact (lr_nonzero_on_axes F FR dt lam r w n Hdt Hr Hr0 H).
Qed.
Print Assumptions C19_coefficients_defined_on_axes.

(* (c) unforced equations: N(0) = 0 ==> one step of every order maps the zero state to the zero state, for ARBITRARY
   coefficient arrays E, Eh, c1..c6 and any N that is a function of the state's values *)
Theorem C19_zero_state : forall (F : FieldT) (I : Type) (E Eh c1 c2 c3 c4 c5 c6 : I -> F) (N : (I -> F) -> (I -> F)),
  (forall u v, (forall k, u k = v k) -> forall k, N u k = N v k) ->
  (forall k, N (zero_st F) k = 0) ->
  forall k,
    etdrk0_step F E (zero_st F) k = 0
    /\ etdrk1_step F E c1 N (zero_st F) k = 0
    /\ etdrk2_step F E c1 c2 N (zero_st F) k = 0
    /\ etdrk3_step F E Eh c1 c2 c3 c4 c5 N (zero_st F) k = 0
    /\ etdrk4_step F E Eh c1 c2 c3 c4 c5 c6 N (zero_st F) k = 0.
Proof.
  intros F I E Eh c1 c2 c3 c4 c5 c6 N Next N0 k. splits.
  - apply step0_zero.
  - apply step1_zero; assumption.
  - apply step2_zero; assumption.
  - apply step3_zero; assumption.
  - apply step4_zero; assumption.
Qed.
Print Assumptions C19_zero_state.

(* (c) forced equations: N(0) = f.  The zero state goes to the combination forced_p (ETDRK/Contour.v) of the coefficient arrays,
   the forcing and N evaluated at the intermediate stages (which are themselves built from f only):
     forced1 = c1 f;   forced2 = c1 f + c2 (N a - f), a = c1 f;   forced3 = c3 f + c4 N a + c5 N b, b = c2 (2 N a - f);
     forced4 = c4 f + 2 c5 (N a + N b) + c6 N c, b = c2 N a, c = Eh c1 f + c3 (2 N b - f) *)
Theorem C19_zero_state_forced : forall (F : FieldT) (I : Type) (E Eh c1 c2 c3 c4 c5 c6 f : I -> F) (N : (I -> F) -> (I -> F)),
  (forall u v, (forall k, u k = v k) -> forall k, N u k = N v k) ->
  (forall k, N (zero_st F) k = f k) ->
  forall k,
    etdrk1_step F E c1 N (zero_st F) k = forced1 F c1 f k
    /\ etdrk2_step F E c1 c2 N (zero_st F) k = forced2 F c1 c2 f N k
    /\ etdrk3_step F E Eh c1 c2 c3 c4 c5 N (zero_st F) k = forced3 F c1 c2 c3 c4 c5 f N k
    /\ etdrk4_step F E Eh c1 c2 c3 c4 c5 c6 N (zero_st F) k = forced4 F Eh c1 c2 c3 c4 c5 c6 f N k.
Proof.
  intros F I E Eh c1 c2 c3 c4 c5 c6 f N Next N0 k. splits.
  - apply step1_forced; assumption.
  - apply (step2_forced F I E c1 c2 N Next f N0).
  - apply (step3_forced F I E Eh c1 c2 c3 c4 c5 N Next f N0).
  - apply (step4_forced F I E Eh c1 c2 c3 c4 c5 c6 N Next f N0).
Qed.
Print Assumptions C19_zero_state_forced.

(* (c) state-independent forcing N u = f with the code's closed-form coefficients h * integrand(z, exp z, exp(z/2)), z <> 0:
   every order returns h phi_1(z) f, the exact solution of u' = lambda u + f after one step from u = 0 (a finite non-zero state) *)
Theorem C19_constant_forcing_exact : forall (F : FieldT) (I : Type) (h : F) (z E Eh f : I -> F),
  (forall k, z k <> 0) ->
  let coef (g : F -> F -> F -> F) : I -> F := fun k => h * g (z k) (E k) (Eh k) in
  forall k,
    etdrk1_step F E (coef (etdrk1_integrand_1 F)) (const_nl F f) (zero_st F) k = h * phi1 (z k) (E k) * f k
    /\ etdrk2_step F E (coef (etdrk2_integrand_1 F)) (coef (etdrk2_integrand_2 F)) (const_nl F f) (zero_st F) k
       = h * phi1 (z k) (E k) * f k
    /\ etdrk3_step F E Eh (coef (etdrk3_integrand_1 F)) (coef (etdrk3_integrand_2 F)) (coef (etdrk3_integrand_3 F))
         (coef (etdrk3_integrand_4 F)) (coef (etdrk3_integrand_5 F)) (const_nl F f) (zero_st F) k
       = h * phi1 (z k) (E k) * f k
    /\ etdrk4_step F E Eh (coef (etdrk4_integrand_1 F)) (coef (etdrk4_integrand_2 F)) (coef (etdrk4_integrand_3 F))
         (coef (etdrk4_integrand_4 F)) (coef (etdrk4_integrand_5 F)) (coef (etdrk4_integrand_6 F)) (const_nl F f) (zero_st F) k
       = h * phi1 (z k) (E k) * f k.
Proof. intros F I h z E Eh f Hz coef k. exact (forced_exact F I h z E Eh f Hz k). Qed.
Print Assumptions C19_constant_forcing_exact.

(* (d) lambda = 0.  FULL STATEMENT (not provable in an exact-arithmetic model without analysis):
     "for z = 0 the contour mean (1/M) sum_j integrand_{p,j}(r w_j, exp(r w_j), exp(r w_j/2)) equals the phi_k(0) = 1/k!
      combination of the tableau up to a remainder <= C r^M / M!".
   It needs the power series of exp (the integrands are entire functions g(x) = sum_m a_m x^m with a_0 the 1/k! combination),
   which an abstract field does not have.  What IS algebraic, and proved:
     1. the phi functions are characterised, limit-free, by z phi_1 = e - 1, z phi_2 = phi_1 - 1, z phi_3 = phi_2 - 1/2; for
        z <> 0 these equations have the unique solution used by the tableaux, and at (z, e) = (0, 1) they are satisfied by 1/k!;
     2. with E = Eh = 1 and the tableau weights taken at phi_k = 1/k! the generated stage programs ARE forward Euler, Heun,
        Kutta-3 and the classical RK4 (the consistency requirement at a mean mode / for a pure ODE);
     3. the M-point contour mean evaluates every polynomial of degree < M exactly at the centre, for any radius and any
        shift of the roots: only the Taylor tail of order >= M = 16 of an integrand can contribute to the error at z = 0.
   The remaining analytic step (a_0 of each integrand = the 1/k! combination; tail <= r^16/16! ~ 5e-14) is left to the float
   check: harness/props/c19.py `coef` compares the coefficients at z = 0 with the 1/k! combinations, to 1e-9 relative in the
   double-precision session and to 2e-3 of the natural size in the single-precision session. *)
Theorem C19_lambda_zero_partial : forall (F : FieldT),
  (forall z e : F, z <> 0 ->
     (z * phi1 z e = e - 1 /\ z * phi2 z e = phi1 z e - 1 /\ z * phi3 z e = phi2 z e - 1 / fz 2)
     /\ forall q1 q2 q3 : F, z * q1 = e - 1 -> z * q2 = q1 - 1 -> z * q3 = q2 - 1 / fz 2 ->
          q1 = phi1 z e /\ q2 = phi2 z e /\ q3 = phi3 z e)
  /\ ((0 : F) * phi1_0 F = 1 - 1 /\ (0 : F) * phi2_0 F = phi1_0 F - 1 /\ (0 : F) * phi3_0 F = phi2_0 F - 1 / fz 2)
  /\ (forall (I : Type) (h : F) (N : (I -> F) -> (I -> F)),
        (forall u v, (forall k, u k = v k) -> forall k, N u k = N v k) ->
        let one : I -> F := fun _ => 1 in
        let cst (x : F) : I -> F := fun _ => h * x in
        let p1 := phi1_0 F in let p2 := phi2_0 F in let p3 := phi3_0 F in
        forall u k,
          etdrk0_step F one u k = u k
          /\ etdrk1_step F one (cst p1) N u k = rk1 F h N u k
          /\ etdrk2_step F one (cst p1) (cst p2) N u k = rk2 F h N u k
          /\ etdrk3_step F one one (cst (p1 / fz 2)) (cst p1) (cst (p1 - fz 3 * p2 + fz 4 * p3))
               (cst (fz 4 * p2 - fz 8 * p3)) (cst (- p2 + fz 4 * p3)) N u k = rk3 F h N u k
          /\ etdrk4_step F one one (cst (p1 / fz 2)) (cst (p1 / fz 2)) (cst (p1 / fz 2)) (cst (p1 - fz 3 * p2 + fz 4 * p3))
               (cst ((fz 2 * p2 - fz 4 * p3) / fz 2)) (cst (- p2 + fz 4 * p3)) N u k = rk4 F h N u k).
Proof.
  intros F. splits.
  - intros z e Hz. split; [apply phi_recurrence; exact Hz | intros; apply phi_recurrence_unique; assumption].
  - apply phi1_at_zero.
  - apply phi2_at_zero.
  - apply phi3_at_zero.
  - intros I h N Next one cst p1 p2 p3 u k. splits.
    + apply step0_one.
    + apply step1_rk.
    + apply step2_rk; assumption.
    + apply step3_rk; assumption.
    + apply step4_rk; assumption.
Qed.
Print Assumptions C19_lambda_zero_partial.

(* (d) 3.: exactness of the contour mean on polynomials of degree < M (w a primitive M-th root of unity, s any shift) *)
Theorem C19_contour_mean_polynomial_partial : forall (F : FieldT) (M : nat) (r s w : F),
  (0 < M)%nat -> fpow w M = 1 -> (forall m, (0 < m < M)%nat -> fpow w m <> 1) ->
  forall (n : nat) (a : nat -> F), (0 < n <= M)%nat ->
    contour_mean F M r s w (poly F n a) = a 0%nat.
Proof. exact mean_poly. Qed.
Print Assumptions C19_contour_mean_polynomial_partial.

(* Gaussian rationals: w = i is a half-shifted root for M = 2 (i^2 = -1); real z = -3/2, r = 1 *)
Example C19_ex_real_axis :
  let z : QcC := mkcx (Q2Qc (-3 # 2)) 0%Qc in let r : QcC := mkcx 1%Qc 0%Qc in let w : QcC := ci in
  im (z : cx QcField) = 0 /\ im (r : cx QcField) = 0 /\ r <> 0 /\ fpow w (2 * 1) = - (1).
Proof.
  cbv zeta. splits; try reflexivity.
  intro H. apply (f_equal re) in H. cbn in H. discriminate H.
Qed.
(* a nonlinear term with N(0) = 0 that respects pointwise equality: N u k = u k * u k *)
Example C19_ex_unforced : let N := fun (u : nat -> QcField) k => u k * u k in
  (forall u v, (forall k, u k = v k) -> forall k, N u k = N v k) /\ (forall k, N (zero_st QcField) k = 0).
Proof.
  cbv zeta. split.
  - intros u v H k. rewrite H. reflexivity.
  - intros k. reflexivity.
Qed.
(* a primitive root for the contour-mean statement: w = i, M = 4 in the Gaussian rationals *)
Example C19_ex_primitive_root : let w : QcC := ci in
  fpow w 4 = 1 /\ forall m, (0 < m < 4)%nat -> fpow w m <> 1.
Proof.
  cbv zeta. split.
  - apply cx_ext; apply Qc_is_canon; reflexivity.
  - intros m Hm H. assert (E : m = 1%nat \/ m = 2%nat \/ m = 3%nat) by lia.
    destruct E as [-> | [-> | ->]]; apply (f_equal (fun c : cx Qc => (this (re c), this (im c)))) in H; lazy in H; discriminate H.
Qed.
(* The hypothesis w^(4n) = -1 of the imaginary-axis statements needs a primitive 8th root of unity, i.e. sqrt 2 in F: no witness
   over the rationals.  Over C = R(i) (Base/RealInst.v; Coq's classical reals, used for this Example and the next only):
   w = (sqrt 2 / 2)(1 + i), purely imaginary z = 3i, r = 1 *)
From EXV Require Import Base.RealInst.
From Coq Require Import Reals.
Example C19_ex_imag_axis :
  let z : RC := mkcx 0%R 3%R in let r : RC := mkcx 1%R 0%R in
  re (z : cx RField) = 0 /\ im (r : cx RField) = 0 /\ r <> 0 /\ fpow w8 (4 * 1) = - (1).
Proof.
  cbv zeta. splits; try reflexivity.
  - intro H. apply (f_equal re) in H. cbn in H. exact (R1_neq_R0 H).
  - exact w8_pow4.
Qed.
(* the hypotheses of C19_contour_points_are_roots_of_minus_one (an exponential with exp(i pi) = -1; no model over the Gaussian
   rationals, where -1 has no roots of every order) are met by exp(x + i y) = e^x (cos y + i sin y) on R(i) *)
Example C19_ex_exponential :
  (forall a b : RC, rcexp (a + b) = rcexp a * rcexp b) /\ rcexp 0 = 1 /\ rcexp ((ci : RC) * rc_pi) = - (1).
Proof. splits; [exact rcexp_add | exact rcexp_0 | exact rcexp_ipi]. Qed.
