(* C05 — spectral differential operators are exact on band-limited fields.
   Models: Spectral/Symbols.v (laplace_sym, gip_sym), Spectral/Operators.v (deriv_mode, poisson_mode), hand-written from
   _spectral.py / _poisson.py and tied to the code by the exact-rational correspondence at every stored mode.
   A Nyquist-free trigonometric polynomial is a finite combination of characters exp(i kappa.x); differentiation acts on each
   character by multiplication with (i kappa_c)^m (symbol calculus; this analytic fact is NOT proved, no theorem here speaks about a
   derivative of a function) -- the operators below are exactly these multipliers. *)
From Coq Require Import ZArith Bool List.
From EXV Require Import Base.Scalar Base.FieldLemmas Base.Cplx Spectral.Symbols Spectral.ListLemmas Spectral.Operators Spectral.OperatorsProofs Spectral.RealSymbols
  Gen.Guards.
Import ListNotations.
Local Open Scope fld_scope.

(* derivative of order m along axis c multiplies mode k by (d_c)^m.  That the output has one entry per axis (the gradient axis) is
   NOT a conclusion of the statement: `/\` binds tighter than `->`, so the length equation stands as a premise, which the proof discards
   (it holds by map_length, deriv_mode being a map over d) *)
Theorem C05_derivative_multiplier : forall (F : FieldT) (m : nat) (d : list F) (u : F) (c : nat),
  length (deriv_mode F m d u) = length d /\ (c < length d)%nat -> nth c (deriv_mode F m d u) 0 = fpow (nth c d 0) m * u.
Proof. intros F m d u c [_ Hc]. exact (nth_map_default _ d 0 0 c Hc). Qed.
Print Assumptions C05_derivative_multiplier.

(* Laplace (even order 2n) and gradient-inner-product (odd order 2n+1) operators equal their analytic symbols, for any i with i^2 = -1 *)
Theorem C05_operator_symbols : forall (F : FieldT) (ii : F), ii * ii = - (1) ->
  forall (n : nat) (v kap : list F),
  ((0 < n)%nat -> laplace_sym F (2 * n) (dk F ii kap) = fpow (- (1)) n * fsum (map (fun x => fpow x (2 * n)) kap))
  /\ gip_sym F v (2 * n + 1) (dk F ii kap) = ii * fpow (- (1)) n * fsum (map2 (fun vc x => vc * fpow x (2 * n + 1)) v kap)
  /\ laplace_sym F 0 (dk F ii kap) = 1.
Proof.
  intros F ii Hi n v kap. split; [|split].
  - intros Hn. apply laplace_symbol; assumption.
  - apply gip_symbol; assumption.
  - reflexivity.
Qed.
Print Assumptions C05_operator_symbols.

(* orders of the wrong parity are refused (Gen/Guards.v, translated from the source) *)
Theorem C05_parity_guards : forall order : Z,
  (laplace_order_raises order = true <-> (order mod 2 <> 0)%Z) /\ (forall D, gip_raises order D [D] = true <-> (order mod 2 <> 1)%Z).
Proof.
  intros order. split.
  - unfold laplace_order_raises. rewrite negb_true_iff, Z.eqb_neq. reflexivity.
  - intros D. unfold gip_raises. destruct (Z.eqb_spec (order mod 2) 1) as [E|E]; cbn.
    + split; [|contradiction]. rewrite Z.eqb_refl. discriminate.
    + split; [intros _; exact E | reflexivity].
Qed.
Print Assumptions C05_parity_guards.

(* Poisson: at every mode with non-zero operator symbol lam the result u solves lam * u = - f; where the symbol vanishes u = 0 *)
Theorem C05_poisson_solves : forall (F : FieldT) (lam f : F),
  (lam <> 0 -> lam * poisson_mode F lam f = - f) /\ (lam = 0 -> poisson_mode F lam f = 0).
Proof. intros. apply poisson_solves. Qed.
Print Assumptions C05_poisson_solves.

(* ... and over a formally real field with real wavenumbers the order-2 symbol vanishes exactly at the mean mode *)
Theorem C05_symbol_vanishes_only_at_mean_mode : forall (F : FieldT), FormallyRealL F -> forall kap : list F,
  lapm (COps F) (dreal F kap) = @o0 (COps F) <-> Forall (fun x => x = 0) kap.
Proof. intros F FR kap. apply lap_zero_iff. exact FR. Qed.
Print Assumptions C05_symbol_vanishes_only_at_mean_mode.

Example C05_ex_rationals_formally_real : FormallyRealL QcField.
Proof. exact Qc_sum_sq_zero. Qed.

(* the derivative operator of the source (build_derivative_operator -> build_scaled_wavenumbers -> build_wavenumbers, re-translated on
   every run by harness/translate/spectral.py): component c at stored index idx is the purely imaginary number i (2 pi / L) k_c with
   k_c the signed integer wavenumber of the layout (Layout/Freq.v), for every number of axes, both indexing conventions, any pi *)
From EXV Require Import Layout.Freq Gen.SpectralGen Tie.SpectralTie.
Theorem C05_code_derivative_operator_is_model : forall (F : FieldT) (pi L : F) (xy : bool) (D : nat) (N : Z) (c : nat) (idx : list Z),
  (c < D)%nat ->
  gen_build_derivative_operator F pi xy D L N c idx = (0, (fz 2 * pi / L) * fz (wavenumber xy D N c idx))
  /\ gen_build_scaled_wavenumbers F pi xy D L N c idx = (fz 2 * pi / L) * fz (wavenumber xy D N c idx).
Proof.
  intros F pi L xy D N c idx Hc. split.
  - apply derivative_operator_tie; exact Hc.
  - apply scaled_wavenumbers_tie; exact Hc.
Qed.
Print Assumptions C05_code_derivative_operator_is_model.

(* the Poisson solver of the source (Poisson.__init__ / step_fourier, re-translated on every run by harness/translate/linops.py together
   with build_laplace_operator) is the model's poisson_mode with the Laplace symbol of the requested (even) order, at every mode *)
From EXV Require Import Gen.LinOps Gen.OperatorsGen Tie.LinOpsTie Tie.PoissonTie.
Theorem C05_code_poisson_is_model : forall (F : FieldT) (d : list F) (order : nat) (f : F),
  gen_poisson_step_fourier F (gen_poisson_inv_operator F d order) f = poisson_mode F (laplace_sym F order d) f
  /\ gen_build_laplace_operator F d order = laplace_sym F order d.
Proof. intros F d order f. split; [apply poisson_tie | apply laplace_tie]. Qed.
Print Assumptions C05_code_poisson_is_model.
