(* The D-dimensional discrete Fourier transform as the D-fold iterate of the 1-D transform (the contract under which rfftn / irfftn are
   used: C04), with its inversion, Parseval and convolution theorems for EVERY dimension D, every n with a primitive n-th root of unity and
   every field.
   The iterated transforms are the transforms with the product characters chi (IC/Normalize.v) over the grid (dftD_sum, and idftI_sum
   for the inverse divided by n^D; for D = 1 C18_idftD_is_idft identifies the idftD of IC/Normalize.v with idft); the theorems are then
   those of DFT/DFT1.v, section Characters. *)
From Coq Require Import ZArith Field List Lia.
From EXV Require Import Base.Scalar Base.FieldLemmas DFT.DFT1 IC.Normalize.
Import ListNotations.
Local Open Scope fld_scope.

Section Defs.
  Variable K : Ops.
  Variable n : nat.
  Fixpoint dftD (D : nat) (w : K) (u : list nat -> K) (k : list nat) : K :=
    match D, k with
    | S D', b :: k' => dft n w (fun a => dftD D' w (fun r => u (a :: r)) k') b
    | _, _ => u []
    end.
  Fixpoint idftI (D : nat) (w' : K) (U : list nat -> K) (j : list nat) : K :=
    match D, j with
    | S D', a :: j' => idft n w' (fun b => idftI D' w' (fun r => U (b :: r)) j') a
    | _, _ => U []
    end.
  Fixpoint subD (k m : list nat) : list nat :=
    match k, m with
    | b :: k', a :: m' => ((b + n - a) mod n)%nat :: subD k' m'
    | _, _ => []
    end.
  Definition cconvD (D : nat) (U V : list nat -> K) (k : list nat) : K := sumD K D n (fun m => U m * V (subD k m)).
End Defs.
Arguments dftD {K} n D w u k. Arguments idftI {K} n D w' U j. Arguments cconvD {K} n D U V k.

Section DFTD.
  Variable F : FieldT.
  Add Field Ffd : (fth F).
  Notation K := (fops F).
  Variable n : nat.
  Variables w w' : K.
  Definition in_grid (D : nat) (k : list nat) : Prop := length k = D /\ Forall (fun b => (b < n)%nat) k.

  Lemma in_grid_cons D b k : in_grid (S D) (b :: k) <-> (b < n)%nat /\ in_grid D k.
  Proof.
    unfold in_grid. cbn [length]. split.
    - intros [Hl Hf]. inversion Hf; subst. repeat split; [assumption | lia | assumption].
    - intros (Hb & Hl & Hf). split; [lia | constructor; assumption].
  Qed.

  Lemma NoDup_gridD D : NoDup (gridD D n).
  Proof.
    induction D as [|D IH]; cbn [gridD]; [constructor; [intros [] | constructor]|].
    apply NoDup_cons_product; [apply seq_NoDup | exact IH].
  Qed.

  Lemma sumD_0 f : sumD K 0 n f = f [].
  Proof. unfold sumD. cbn. ring. Qed.
  Lemma sumD_S D f : sumD K (S D) n f = bsum n (fun a => sumD K D n (fun r => f (a :: r))).
  Proof.
    unfold sumD, bsum. cbn [gridD]. rewrite fsum_flat_map. apply fsum_map_ext. intros a _.
    rewrite map_map. reflexivity.
  Qed.
  Lemma sumD_ext D f g : (forall k, In k (gridD D n) -> f k = g k) -> sumD K D n f = sumD K D n g.
  Proof. intros H. unfold sumD. apply fsum_map_ext. exact H. Qed.
  Lemma sumD_scal D c f : sumD K D n (fun k => c * f k) = c * sumD K D n f.
  Proof. unfold sumD. apply fsum_map_scal. Qed.
  Lemma sumD_bsum D m (f : list nat -> nat -> K) : sumD K D n (fun r => bsum m (f r)) = bsum m (fun b => sumD K D n (fun r => f r b)).
  Proof. apply fsum_map_swap. Qed.
  Lemma sumD_prod D (f : nat -> K) (g : list nat -> K) (h : list nat -> K) :
    (forall a r, h (a :: r) = f a * g r) -> sumD K (S D) n h = bsum n f * sumD K D n g.
  Proof.
    intros H. rewrite sumD_S, <- bsum_scal_r. apply bsum_ext. intros a _.
    rewrite <- sumD_scal. apply sumD_ext. intros r _. apply H.
  Qed.

  Lemma sumD_tsum D f : sumD K D n f = tsum F _ (gridD D n) f.
  Proof. reflexivity. Qed.

  Lemma chi_sym (v : K) : symmetric F _ (chi K v).
  Proof. intros j. induction j as [|a j IH]; intros [|b k]; cbn [chi]; try reflexivity. rewrite IH, Nat.mul_comm. reflexivity. Qed.

  Lemma chi_sum_cons (v v' : K) D b c k m :
    tsum F _ (gridD (S D) n) (fun j => chi K v j (b :: k) * chi K v' j (c :: m))
    = tsum F nat (seq 0 n) (fun a => chr v a b * chr v' a c) * tsum F _ (gridD D n) (fun r => chi K v r k * chi K v' r m).
  Proof. rewrite <- !sumD_tsum, <- bsum_tsum. apply sumD_prod. intros a r. cbn [chi]. unfold chr. ring. Qed.

  Lemma dftD_sum (v : K) D (u : list nat -> K) k : length k = D -> dftD n D v u k = ft F _ (gridD D n) (chi K v) u k.
  Proof.
    revert u k. induction D as [|D IH]; intros u [|b k] Hl; try discriminate; rewrite ft_tsum, <- sumD_tsum; cbn [dftD].
    - rewrite sumD_0. cbn [chi]. ring.
    - rewrite sumD_S. apply bsum_ext. intros a _. rewrite IH, ft_tsum, <- sumD_tsum by (cbn in Hl; lia).
      rewrite (sumD_ext D (fun r => u (a :: r) * chi K v (a :: r) (b :: k)) (fun r => fpow v (a * b) * (u (a :: r) * chi K v r k)))
        by (intros; cbn [chi]; ring).
      rewrite sumD_scal. ring.
  Qed.

  Lemma dftD_scal (v : K) D c (u : list nat -> K) k : length k = D -> dftD n D v (fun j => c * u j) k = c * dftD n D v u k.
  Proof. intros Hl. rewrite !dftD_sum by exact Hl. apply ft_scal. Qed.

  Hypothesis n_pos : (0 < n)%nat.

  Lemma in_gridD_iff D k : In k (gridD D n) <-> in_grid D k.
  Proof.
    revert k. induction D as [|D IH]; intros [|a r]; cbn [gridD].
    - split; [intros _; split; [reflexivity | constructor] | left; reflexivity].
    - split; [intros [E|[]]; discriminate | intros [Hl _]; discriminate].
    - split; [intros H; destruct (nil_cons_product _ _ H) | intros [Hl _]; discriminate].
    - rewrite in_cons_product, IH, in_grid_cons, in_seq. intuition lia.
  Qed.

  Lemma subD_grid D k m : length k = D -> length m = D -> in_grid D (subD n k m).
  Proof.
    revert k m. induction D as [|D IH]; intros [|b k] [|c m] Hk Hm; try discriminate; [split; [reflexivity | constructor]|].
    cbn [subD]. apply in_grid_cons. split; [apply Nat.mod_upper_bound; lia | apply IH; cbn in *; lia].
  Qed.

  Lemma npts_nz D : npts K D n <> 0.
  Proof. unfold npts. apply fpow_neq0. apply fz_neq0. lia. Qed.

  Lemma dftD_ext_grid D (u v : list nat -> K) k : length k = D -> (forall j, in_grid D j -> u j = v j) -> dftD n D w u k = dftD n D w v k.
  Proof.
    intros Hl H. rewrite !dftD_sum by exact Hl. apply ft_ext. intros j Hj. apply H, in_gridD_iff, Hj.
  Qed.

  Lemma cconvD_ext_grid D (A A' B B' : list nat -> K) k : length k = D ->
    (forall m, in_grid D m -> A m = A' m) -> (forall m, in_grid D m -> B m = B' m) -> cconvD n D A B k = cconvD n D A' B' k.
  Proof.
    intros Hl HA HB. unfold cconvD. apply sumD_ext. intros m Hm. apply in_gridD_iff in Hm.
    rewrite HA, HB; [reflexivity | apply subD_grid; [exact Hl | apply Hm] | exact Hm].
  Qed.

  Lemma idftI_sum (v : K) D (U : list nat -> K) j : length j = D -> idftI n D v U j = ft F _ (gridD D n) (chi K v) U j / npts K D n.
  Proof.
    intros Hl. rewrite <- dftD_sum by exact Hl.
    pose proof (n_nz F n n_pos) as Hn. unfold npts.
    revert U j Hl. induction D as [|D IH]; intros U [|a j] Hl; try discriminate; cbn [idftI dftD fpow]; [field; apply (f_1_neq_0 F)|].
    pose proof (fpow_neq0 F _ D Hn) as Hp.
    rewrite idft_ft, <- dft_ft, (dft_ext F n v _ (fun b => oinv (fpow (fz (Z.of_nat n)) D) * dftD n D v (fun r => U (b :: r)) j)).
    - rewrite dft_scal. field. split; assumption.
    - intros b _. rewrite IH by (cbn in Hl; lia). rewrite fdiv_def. ring.
  Qed.

  Hypothesis w_n : fpow w n = 1.
  Hypothesis w_prim : forall m, (0 < m < n)%nat -> fpow w m <> 1.
  Hypothesis w_inv : w * w' = 1.

  Lemma chi_orthogonal D : orthogonal F _ (gridD D n) (chi K w) (chi K w') (npts K D n).
  Proof.
    destruct (chr_orthogonal F n w w' n_pos w_n w_prim w_inv) as [C1 C0]. unfold npts.
    induction D as [|D [H1 H0]]; split.
    - intros k _. rewrite <- sumD_tsum, sumD_0. cbn [chi fpow]. ring.
    - intros k m [<-|[]] [<-|[]] Hne. congruence.
    - intros [|b k] Hk; [destruct (nil_cons_product _ _ Hk)|]. apply (in_cons_product (seq 0 n) (gridD D n)) in Hk. destruct Hk as [Hb Hk].
      rewrite chi_sum_cons, (H1 k Hk), (C1 b Hb). reflexivity.
    - intros [|b k] [|c m] Hk Hm Hne; [destruct (nil_cons_product _ _ Hk) .. | destruct (nil_cons_product _ _ Hm) |].
      apply (in_cons_product (seq 0 n) (gridD D n)) in Hk, Hm. destruct Hk as [Hb Hk], Hm as [Hc Hm]. rewrite chi_sum_cons.
      destruct (Nat.eq_dec c b) as [->|Hcb].
      + rewrite (H0 k m Hk Hm); [ring | congruence].
      + rewrite (C0 b c Hb Hc Hcb). ring.
  Qed.

  Lemma chi_quot j k m : length k = length m -> Forall (fun c => (c < n)%nat) m -> chi K w j k * chi K w' j m = chi K w j (subD n k m).
  Proof.
    revert k m. induction j as [|a j IH]; intros [|b k] [|c m] Hl Hm; cbn [chi subD]; try discriminate; [ring ..|].
    inversion Hm; subst. rewrite <- (IH k m) by (try assumption; cbn in Hl; lia).
    fold (chr w a ((b + n - c) mod n)). rewrite (chr_mod F n w n_pos w_n), <- (chr_quot F n w w' n_pos w_n w_inv a b c) by lia. unfold chr. ring.
  Qed.

  Theorem dftD_inversion D (u : list nat -> K) j : in_grid D j -> idftI n D w' (dftD n D w u) j = u j.
  Proof.
    intros Hj. rewrite idftI_sum by apply Hj. pose proof (npts_nz D) as Hp.
    transitivity (npts K D n * u j / npts K D n); [f_equal | field; exact Hp].
    rewrite <- (ft_inverse F _ _ (NoDup_gridD D) _ _ _ u j (chi_sym w) (orthogonal_sym F _ _ _ _ _ (chi_orthogonal D))) by (apply in_gridD_iff, Hj).
    apply ft_ext. intros k Hk. apply dftD_sum. apply in_gridD_iff in Hk. apply Hk.
  Qed.

  Theorem dftD_idftI D (U : list nat -> K) k : in_grid D k -> dftD n D w (idftI n D w' U) k = U k.
  Proof.
    intros Hk. rewrite dftD_sum by apply Hk. pose proof (npts_nz D) as Hp.
    rewrite (ft_ext F _ _ _ _ (fun j => oinv (npts K D n) * ft F _ (gridD D n) (chi K w') U j)).
    - rewrite ft_scal, (ft_inverse F _ _ (NoDup_gridD D) _ _ _ U k (chi_sym w') (chi_orthogonal D)) by (apply in_gridD_iff, Hk). field. exact Hp.
    - intros j Hj. apply in_gridD_iff in Hj. rewrite idftI_sum by apply Hj. rewrite fdiv_def. ring.
  Qed.

  Theorem dftD_convolution D (u v : list nat -> K) k : in_grid D k ->
    dftD n D w (fun j => u j * v j) k = cconvD n D (dftD n D w u) (dftD n D w v) k / npts K D n.
  Proof.
    intros Hk. pose proof (npts_nz D) as Hp.
    transitivity (npts K D n * dftD n D w (fun j => u j * v j) k / npts K D n); [field; exact Hp|]. f_equal.
    rewrite dftD_sum by apply Hk.
    rewrite (ft_convolution F _ _ (NoDup_gridD D) _ _ _ (chi_sym w) (chi_sym w') (chi_orthogonal D) (subD n)).
    - unfold cconvD. rewrite <- sumD_tsum. apply sumD_ext. intros m Hm. apply in_gridD_iff in Hm. rewrite !dftD_sum; [reflexivity | apply (subD_grid D k m); [apply Hk | apply Hm] | apply Hm].
    - intros j k0 m _ Hk0 Hm. apply in_gridD_iff in Hk0, Hm. apply chi_quot; [destruct Hk0, Hm; congruence | apply Hm].
    - apply in_gridD_iff, Hk.
  Qed.

  (* Parseval without conjugation: the second transform uses the inverse root; for a real field it is the conjugate transform
     (Metrics/ParsevalRealD.v) *)
  Theorem parseval_bilinear_D D (u v : list nat -> K) :
    sumD K D n (fun k => dftD n D w u k * dftD n D w' v k) = npts K D n * sumD K D n (fun j => u j * v j).
  Proof.
    rewrite (sumD_tsum D (fun j => u j * v j)), <- (ft_parseval F _ _ (NoDup_gridD D) _ _ _ (chi_sym w) (chi_sym w') (chi_orthogonal D) u v), <- sumD_tsum.
    apply sumD_ext. intros k Hk. apply in_gridD_iff in Hk. rewrite !dftD_sum by apply Hk. reflexivity.
  Qed.

  (* trigonometric interpolation in D dimensions: the samples of p = sum_m a_m e^{2 pi i m.x/L} on the grid are n^D idftI(a); the coefficients
     read off their transform, re-summed against ANY character table chi (an arbitrary query point), return sum_m a_m chi(m) *)
  Theorem interpolation_exact_D D (a chi : list nat -> K) :
    sumD K D n (fun k => dftD n D w (fun j => npts K D n * idftI n D w' a j) k / npts K D n * chi k) = sumD K D n (fun m => a m * chi m).
  Proof.
    apply (sumD_ext D). intros k Hk. apply in_gridD_iff in Hk.
    rewrite dftD_scal, (dftD_idftI D a k Hk) by apply Hk. pose proof (npts_nz D) as Hp. field. exact Hp.
  Qed.
End DFTD.
