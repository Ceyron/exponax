(* The discrete Fourier transform over an abstract field with a primitive n-th root of unity.  Inversion, Parseval and convolution are proved
   for any finite index set with a symmetric orthogonal character table (section Characters); the 1-D transform is the instance
   pts = 0..n-1, e j k = w^(j k), the D-dimensional transform (the iterate along each axis, DFT/DFTD.v) the instance over the n^D grid.
   jnp.fft computes this transform with w = exp(-2 pi i / n) (contract, exercised by the correspondence of C04). *)
From Coq Require Import ZArith Field List Lia.
From EXV Require Import Base.Scalar Base.FieldLemmas.
Import ListNotations.
Local Open Scope fld_scope.

Section DFTdefs.
  Variable K : Ops.
  Definition bsum (n : nat) (f : nat -> K) : K := fsum (map f (seq 0 n)).
  Definition dft (n : nat) (w : K) (u : nat -> K) (k : nat) : K := bsum n (fun j => u j * fpow w (j * k)).
  (* inverse: w' = 1/w *)
  Definition idft (n : nat) (w' : K) (U : nat -> K) (j : nat) : K :=
    bsum n (fun k => U k * fpow w' (j * k)) / fz (Z.of_nat n).
  Definition cconv (n : nat) (U V : nat -> K) (k : nat) : K :=
    bsum n (fun m => U m * V ((k + n - m) mod n)%nat).
End DFTdefs.
Arguments bsum {K} n f. Arguments dft {K} n w u k. Arguments idft {K} n w' U j. Arguments cconv {K} n U V k.

(* the character table of the 1-D transform *)
Definition chr {K : Ops} (w : K) (j k : nat) : K := fpow w (j * k).

(* [pts] the index set, e the character table (e j k: character k at point j), e' its inverse: sum_j e j k * e' j m = N if k = m, 0 otherwise *)
Section Characters.
  Variable F : FieldT.
  Add Ring Ffch : (fring F).
  Variable I : Type.
  Variable pts : list I.
  Hypothesis pts_nodup : NoDup pts.

  (* the sum over the index set; bsum n and sumD D n are its instances (bsum_tsum; DFTD.sumD_tsum) *)
  Definition tsum (f : I -> F) : F := fsum (map f pts).
  Definition ft (e : I -> I -> F) (u : I -> F) (k : I) : F := tsum (fun j => u j * e j k).

  Lemma ft_tsum e (u : I -> F) k : ft e u k = tsum (fun j => u j * e j k).
  Proof. reflexivity. Qed.
  Lemma ft_ext e (u v : I -> F) k : (forall j, In j pts -> u j = v j) -> ft e u k = ft e v k.
  Proof. intros H. apply fsum_map_ext. intros j Hj. rewrite (H j Hj). reflexivity. Qed.
  Lemma ft_scal e c (u : I -> F) k : ft e (fun j => c * u j) k = c * ft e u k.
  Proof. unfold ft, tsum. rewrite <- fsum_map_scal. apply fsum_map_ext. intros; ring. Qed.

  Definition symmetric (e : I -> I -> F) : Prop := forall j k, e j k = e k j.

  Definition orthogonal (e e' : I -> I -> F) (N : F) : Prop :=
    (forall k, In k pts -> tsum (fun j => e j k * e' j k) = N)
    /\ (forall k m, In k pts -> In m pts -> m <> k -> tsum (fun j => e j k * e' j m) = 0).

  Lemma orthogonal_sym e e' N : orthogonal e e' N -> orthogonal e' e N.
  Proof.
    unfold orthogonal, tsum. intros [H1 H0]. split.
    - intros k Hk. rewrite <- (H1 k Hk). apply fsum_map_ext. intros; ring.
    - intros k m Hk Hm Hne. rewrite <- (H0 m k Hm Hk (not_eq_sym Hne)). apply fsum_map_ext. intros; ring.
  Qed.

  Theorem ft_inverse e e' N (U : I -> F) k : symmetric e' -> orthogonal e e' N -> In k pts -> ft e (ft e' U) k = N * U k.
  Proof.
    intros Hs [H1 H0] Hk. unfold ft, tsum in *.
    rewrite (fsum_map_ext F pts _ (fun j => fsum (map (fun m => U m * e' j m) pts) * e j k)).
    2:{ intros j _. f_equal. apply fsum_map_ext. intros m _. rewrite Hs. reflexivity. }
    rewrite fsum_exchange, (fsum_single F pts k _ pts_nodup Hk).
    - rewrite (H1 k Hk). ring.
    - intros m Hm Hne. rewrite (H0 k m Hk Hm Hne). ring.
  Qed.

  Variables e e' : I -> I -> F.
  Variable N : F.
  Hypothesis e_sym : symmetric e.
  Hypothesis e'_sym : symmetric e'.
  Hypothesis orth : orthogonal e e' N.

  (* Parseval without conjugation: the second transform uses the inverse table *)
  Theorem ft_parseval (u v : I -> F) :
    tsum (fun k => ft e u k * ft e' v k) = N * tsum (fun j => u j * v j).
  Proof.
    unfold ft at 1. unfold tsum. rewrite (fsum_exchange F pts pts u (fun k j => e j k)), <- fsum_map_scal.
    apply fsum_map_ext. intros j Hj. transitivity (u j * (N * v j)); [|ring].
    rewrite <- (ft_inverse e e' N v j e'_sym orth Hj). apply f_equal. apply fsum_map_ext. intros k _. rewrite e_sym. reflexivity.
  Qed.

  (* convolution theorem: [sub k m] is the index of the quotient character e . k / e . m *)
  Variable sub : I -> I -> I.
  Hypothesis e_quot : forall j k m, In j pts -> In k pts -> In m pts -> e j k * e' j m = e j (sub k m).

  Theorem ft_convolution (u v : I -> F) k : In k pts ->
    N * ft e (fun j => u j * v j) k = tsum (fun m => ft e u m * ft e v (sub k m)).
  Proof.
    intros Hk. unfold ft at 1. unfold tsum. rewrite <- fsum_map_scal.
    (* u = ft e' (ft e u) / N *)
    rewrite (fsum_map_ext F pts _ (fun j => fsum (map (fun m => ft e u m * e' j m) pts) * (v j * e j k))).
    2:{ intros j Hj. transitivity (N * u j * (v j * e j k)); [ring|]. f_equal.
        rewrite <- (ft_inverse e' e N u j e_sym (orthogonal_sym e e' N orth) Hj).
        apply fsum_map_ext. intros m _. rewrite e'_sym. reflexivity. }
    rewrite fsum_exchange. apply fsum_map_ext. intros m Hm. apply f_equal. apply fsum_map_ext. intros j Hj.
    rewrite <- (e_quot j k m Hj Hk Hm). ring.
  Qed.
End Characters.

Section DFT1.
  Variable F : FieldT.
  Add Field Ff : (fth F).
  Implicit Types f g : nat -> F.
  Implicit Types c : F.

  Lemma bsum_ext n f g : (forall j, (j < n)%nat -> f j = g j) -> bsum n f = bsum n g.
  Proof. intros H. unfold bsum. apply fsum_map_ext. intros j Hj. apply in_seq in Hj. apply H, Hj. Qed.
  Lemma bsum_scal n c f : bsum n (fun j => c * f j) = c * bsum n f.
  Proof. unfold bsum. apply fsum_map_scal. Qed.
  Lemma bsum_scal_r n c f : bsum n (fun j => f j * c) = bsum n f * c.
  Proof. unfold bsum. apply fsum_map_scal_r. Qed.
  Lemma bsum_swap n m (f : nat -> nat -> F) :
    bsum n (fun a => bsum m (fun b => f a b)) = bsum m (fun b => bsum n (fun a => f a b)).
  Proof. unfold bsum. apply fsum_map_swap. Qed.
  Lemma bsum_S n f : bsum (S n) f = bsum n f + f n.
  Proof. unfold bsum. rewrite seq_S, map_app, fsum_app. cbn [map fsum Nat.add]. ring. Qed.
  Lemma bsum_const n c : bsum n (fun _ => c) = fz (Z.of_nat n) * c.
  Proof. unfold bsum. rewrite fsum_map_const, seq_length. reflexivity. Qed.
  Lemma bsum_single n j0 f : (j0 < n)%nat -> (forall j, (j < n)%nat -> j <> j0 -> f j = 0) -> bsum n f = f j0.
  Proof.
    intros Hj H. apply (fsum_single F _ j0 f (seq_NoDup n 0)); [apply in_seq; lia|].
    intros j Hj'. apply in_seq in Hj'. apply H, Hj'.
  Qed.

  Lemma in_range m j : (j < m)%nat -> In j (seq 0 m).
  Proof. intros. apply in_seq. lia. Qed.

  Lemma bsum_split n a g : (a <= n)%nat -> bsum n g = bsum a g + bsum (n - a) (fun i => g (a + i)%nat).
  Proof.
    induction 1 as [|n Ha IH]; [rewrite Nat.sub_diag; unfold bsum; cbn [seq map fsum]; ring|].
    rewrite Nat.sub_succ_l, !bsum_S, IH, (Nat.add_comm a), Nat.sub_add by exact Ha. ring.
  Qed.
  Lemma bsum_S_first n g : bsum (S n) g = g 0%nat + bsum n (fun i => g (S i)).
  Proof. unfold bsum. cbn [seq map fsum]. rewrite <- seq_shift, map_map. reflexivity. Qed.
  Lemma bsum_rev n g : bsum n g = bsum n (fun i => g (n - S i)%nat).
  Proof.
    induction n as [|n IH]; [reflexivity|].
    rewrite bsum_S, bsum_S_first, IH. cbn [Nat.sub]. rewrite Nat.sub_0_r. ring.
  Qed.
  Lemma bsum_rot n s g : (s < n)%nat -> bsum n (fun j => g ((j + s) mod n)%nat) = bsum n g.
  Proof.
    intros Hs. rewrite (bsum_split n (n - s)) by lia. rewrite (bsum_split n s g) by lia.
    replace (n - (n - s))%nat with s by lia. rewrite (F_R (fth F)).(Radd_comm). f_equal; apply bsum_ext; intros i Hi; apply f_equal.
    - replace (n - s + i + s)%nat with (i + 1 * n)%nat by lia. rewrite Nat.mod_add by lia. apply Nat.mod_small. lia.
    - rewrite Nat.mod_small by lia. lia.
  Qed.

  Lemma geom (a : F) n : (a - 1) * bsum n (fun k => fpow a k) = fpow a n - 1.
  Proof. induction n as [|n IH]; [cbn; ring|]. rewrite bsum_S. cbn [fpow]. transitivity ((a - 1) * bsum n (fun k => fpow a k) + (a - 1) * fpow a n); [ring|]. rewrite IH. ring. Qed.
  Lemma geom_root (a : F) n : fpow a n = 1 -> a <> 1 -> bsum n (fun k => fpow a k) = 0.
  Proof.
    intros Hn Ha. destruct (fmul_eq0 F (a - 1) (bsum n (fun k => fpow a k))) as [H|H]; [rewrite geom, Hn; ring | | exact H].
    destruct Ha. apply (fsub_eq0 F), H.
  Qed.

  Lemma dft_zero_mode m (v : F) (u : nat -> F) : dft m v u 0 = bsum m u.
  Proof. unfold dft. apply bsum_ext. intros j _. rewrite Nat.mul_0_r. cbn [fpow]. ring. Qed.
  Lemma dft_add m (v : F) (u u' : nat -> F) k : dft m v (fun j => u j + u' j) k = dft m v u k + dft m v u' k.
  Proof. unfold dft, bsum. rewrite <- fsum_map_add. apply fsum_map_ext. intros; ring. Qed.

  Lemma chr_sym (v : F) : symmetric F nat (chr v).
  Proof. intros j k. unfold chr. rewrite Nat.mul_comm. reflexivity. Qed.
  Lemma bsum_tsum m f : bsum m f = tsum F nat (seq 0 m) f.
  Proof. reflexivity. Qed.
  Lemma dft_ft m (v : F) (u : nat -> F) k : dft m v u k = ft F nat (seq 0 m) (chr v) u k.
  Proof. reflexivity. Qed.
  Lemma dft_ext m (v : F) (u u' : nat -> F) b : (forall a, (a < m)%nat -> u a = u' a) -> dft m v u b = dft m v u' b.
  Proof. intros H. rewrite !dft_ft. apply ft_ext. intros a Ha. apply in_seq in Ha. apply H, Ha. Qed.
  Lemma dft_scal m (v : F) c (u : nat -> F) k : dft m v (fun j => c * u j) k = c * dft m v u k.
  Proof. exact (ft_scal F nat (seq 0 m) (chr v) c u k). Qed.
  Lemma idft_ft m (v : F) (U : nat -> F) j : idft m v U j = ft F nat (seq 0 m) (chr v) U j / fz (Z.of_nat m).
  Proof. unfold idft. f_equal. apply bsum_ext. intros k _. rewrite <- (chr_sym v j k). reflexivity. Qed.

  Section Root.
    Variable n : nat.
    Variable w : F.
    Hypothesis n_pos : (0 < n)%nat.
    Hypothesis w_n : fpow w n = 1.
    Hypothesis w_prim : forall m, (0 < m < n)%nat -> fpow w m <> 1.

    Lemma n_nz : @fz F (Z.of_nat n) <> 0.
    Proof. apply fz_neq0. lia. Qed.

    Lemma w_mod m : fpow w (m mod n) = fpow w m.
    Proof.
      transitivity (fpow w (n * (m / n) + m mod n)); [rewrite fpow_add, fpow_mul, w_n, fpow_1; ring|]. symmetry. apply f_equal, Nat.div_mod. lia.
    Qed.
    Lemma chr_mod j k : chr w j (k mod n) = chr w j k.
    Proof. unfold chr. rewrite !(Nat.mul_comm j), !(fpow_mul F w _ j), w_mod. reflexivity. Qed.

    Theorem orthogonality m : bsum n (fun j => fpow w (j * m)) = if (m mod n =? 0)%nat then fz (Z.of_nat n) else 0.
    Proof.
      rewrite (bsum_ext n _ (fun j => fpow (fpow w (m mod n)) j)).
      2:{ intros j Hj. rewrite Nat.mul_comm, fpow_mul, (w_mod m). reflexivity. }
      destruct (Nat.eqb_spec (m mod n) 0) as [E|E].
      - rewrite E. cbn [fpow]. rewrite (bsum_ext n _ (fun _ => 1)) by (intros; apply fpow_1). rewrite bsum_const. ring.
      - apply geom_root; [rewrite <- fpow_mul, Nat.mul_comm, fpow_mul, w_n; apply fpow_1|].
        apply w_prim. pose proof (Nat.mod_upper_bound m n). lia.
    Qed.
  End Root.

  Variable n : nat.
  Variables w w' : F.
  Hypothesis n_pos : (0 < n)%nat.
  Hypothesis w_n : fpow w n = 1.
  Hypothesis w_prim : forall m, (0 < m < n)%nat -> fpow w m <> 1.
  Hypothesis w_inv : w * w' = 1.

  Lemma w_w' m : fpow w m * fpow w' m = 1.
  Proof. rewrite <- fpow_mul_base, w_inv. apply fpow_1. Qed.
  Lemma w'_n : fpow w' n = 1.
  Proof. rewrite <- (w_w' n), w_n. ring. Qed.
  Lemma w'_prim m : (0 < m < n)%nat -> fpow w' m <> 1.
  Proof. intros Hm E. apply (w_prim m Hm). rewrite <- (w_w' m), E. ring. Qed.

  Lemma w'_orthogonality m : bsum n (fun j => fpow w' (j * m)) = if (m mod n =? 0)%nat then fz (Z.of_nat n) else 0.
  Proof. exact (orthogonality n w' n_pos w'_n w'_prim m). Qed.

  Lemma w'_pow m : (m <= n)%nat -> fpow w' m = fpow w (n - m).
  Proof.
    intros Hm. transitivity (fpow w m * fpow w' m * fpow w (n - m)); [|rewrite w_w'; ring].
    transitivity (fpow w' m * fpow w (m + (n - m))); [|rewrite fpow_add; ring].
    rewrite (Nat.add_comm m), (Nat.sub_add m n Hm), w_n. ring.
  Qed.
  Lemma chr_quot j k m : (m <= n)%nat -> chr w j k * chr w' j m = chr w j (k + n - m).
  Proof.
    intros Hm. unfold chr. rewrite (Nat.mul_comm j m), (fpow_mul F w' m j), (w'_pow m Hm), <- fpow_mul, <- fpow_add.
    rewrite (Nat.mul_comm (n - m) j), <- Nat.mul_add_distr_l. do 2 apply f_equal. lia.
  Qed.

  Lemma chr_orthogonal : orthogonal F nat (seq 0 n) (chr w) (chr w') (fz (Z.of_nat n)).
  Proof.
    split.
    - intros k _. rewrite <- bsum_tsum, (bsum_ext n _ (fun _ => 1)) by (intros; apply w_w'). rewrite bsum_const. ring.
    - intros k m Hk Hm Hne. apply in_seq in Hk, Hm.
      rewrite <- bsum_tsum, (bsum_ext n _ (fun j => fpow w (j * (k + n - m)))) by (intros; apply chr_quot; lia).
      rewrite (orthogonality n w n_pos w_n w_prim).
      destruct (Nat.eqb_spec ((k + n - m) mod n) 0) as [E|E]; [|reflexivity].
      (* k + n - m < 2n is a multiple of n only for k = m *)
      exfalso. apply Hne. apply Nat.div_exact in E; [|lia]. destruct ((k + n - m) / n)%nat as [|[|q]]; nia.
  Qed.

  (* dft . (n idft) = n id *)
  Theorem dft_of_trig_poly (a : nat -> F) k : (k < n)%nat ->
    dft n w (fun j => bsum n (fun m => a m * fpow w' (j * m))) k = fz (Z.of_nat n) * a k.
  Proof.
    intros Hk. rewrite <- (ft_inverse F nat _ (seq_NoDup n 0) (chr w) (chr w') _ a k (chr_sym w') chr_orthogonal (in_range n k Hk)).
    apply dft_ext. intros j _. apply bsum_ext. intros m _. rewrite <- (chr_sym w' j m). reflexivity.
  Qed.

  Theorem dft_inversion (u : nat -> F) j : (j < n)%nat -> idft n w' (dft n w u) j = u j.
  Proof.
    intros Hj. rewrite idft_ft. transitivity (fz (Z.of_nat n) * u j / fz (Z.of_nat n)); [|field; apply n_nz; exact n_pos]. f_equal.
    exact (ft_inverse F nat _ (seq_NoDup n 0) (chr w') (chr w) _ u j (chr_sym w) (orthogonal_sym F nat _ _ _ _ chr_orthogonal) (in_range n j Hj)).
  Qed.

  (* a single character u_j = c * w'^(j m) (i.e. c exp(+2 pi i j m / n)) has spectrum n*c at k = m and 0 elsewhere *)
  Theorem dft_single_mode (c : F) m k : (m < n)%nat -> (k < n)%nat ->
    dft n w (fun j => c * fpow w' (j * m)) k = if (k =? m)%nat then fz (Z.of_nat n) * c else 0.
  Proof.
    intros Hm Hk. unfold dft. destruct chr_orthogonal as [H1 H0].
    rewrite (bsum_ext n _ (fun j => c * (chr w j k * chr w' j m))) by (intros; unfold chr; ring). rewrite bsum_scal, bsum_tsum.
    destruct (Nat.eqb_spec k m) as [->|Hne].
    - rewrite (H1 m (in_range n m Hm)). ring.
    - rewrite (H0 k m (in_range n k Hk) (in_range n m Hm)) by congruence. ring.
  Qed.

  (* a real harmonic c e^{+i theta_j} + c' e^{-i theta_j} (theta_j = 2 pi m j / n, 0 < m < n, 2m <> n): n*c at mode m, n*c' at mode n - m *)
  Theorem dft_two_characters (c c' : F) m k : (0 < m < n)%nat -> (2 * m <> n)%nat -> (k < n)%nat ->
    dft n w (fun j => c * fpow w' (j * m) + c' * fpow w' (j * (n - m))) k
    = if (k =? m)%nat then fz (Z.of_nat n) * c else if (k =? n - m)%nat then fz (Z.of_nat n) * c' else 0.
  Proof.
    intros Hm H2 Hk. rewrite dft_add, !dft_single_mode by lia.
    destruct (Nat.eqb_spec k m), (Nat.eqb_spec k (n - m)); [lia | ring ..].
  Qed.

  Theorem parseval_bilinear (u v : nat -> F) :
    bsum n (fun k => dft n w u k * dft n w' v k) = fz (Z.of_nat n) * bsum n (fun j => u j * v j).
  Proof. rewrite !bsum_tsum. exact (ft_parseval F nat _ (seq_NoDup n 0) (chr w) (chr w') _ (chr_sym w) (chr_sym w') chr_orthogonal u v). Qed.

  Lemma dft_reflect (u : nat -> F) k : (k <= n)%nat -> dft n w u (n - k) = dft n w' u k.
  Proof.
    intros Hk. unfold dft. apply bsum_ext. intros j _. rewrite !(Nat.mul_comm j), !(fpow_mul F _ _ j), (w'_pow k Hk). reflexivity.
  Qed.

  Theorem dft_shift (u : nat -> F) s k : (s < n)%nat ->
    dft n w (fun j => u ((j + s) mod n)%nat) k = fpow w' (s * k) * dft n w u k.
  Proof.
    intros Hs. unfold dft. rewrite <- (bsum_rot n s (fun j => u j * fpow w (j * k)) Hs), <- bsum_scal.
    apply bsum_ext. intros j _. fold (chr w ((j + s) mod n) k). rewrite (chr_sym w _ k), (chr_mod n w n_pos w_n), (chr_sym w k). unfold chr.
    rewrite Nat.mul_add_distr_r, fpow_add.
    transitivity (u ((j + s) mod n)%nat * fpow w (j * k) * (fpow w (s * k) * fpow w' (s * k))); [rewrite w_w' |]; ring.
  Qed.

  (* trigonometric interpolation is exact: reading the coefficients off the transform and re-summing against ANY character table chi
     (chi m = e^{2 pi i m x / L} at an arbitrary query point x) returns the polynomial's value sum_m a_m chi m *)
  Theorem interpolation_exact (a chi : nat -> F) :
    bsum n (fun k => dft n w (fun j => bsum n (fun m => a m * fpow w' (j * m))) k / fz (Z.of_nat n) * chi k)
    = bsum n (fun m => a m * chi m).
  Proof.
    apply bsum_ext. intros k Hk. rewrite dft_of_trig_poly by exact Hk. field. apply n_nz. exact n_pos.
  Qed.

  Lemma dft_mod (u : nat -> F) k : dft n w u (k mod n) = dft n w u k.
  Proof. unfold dft. apply bsum_ext. intros j _. apply f_equal. apply (chr_mod n w n_pos w_n). Qed.

  Theorem dft_convolution (u v : nat -> F) k : (k < n)%nat ->
    dft n w (fun j => u j * v j) k = cconv n (dft n w u) (dft n w v) k / fz (Z.of_nat n).
  Proof.
    intros Hk. transitivity (fz (Z.of_nat n) * dft n w (fun j => u j * v j) k / fz (Z.of_nat n)); [field; apply n_nz; exact n_pos|]. f_equal.
    apply (ft_convolution F nat _ (seq_NoDup n 0) (chr w) (chr w') _ (chr_sym w) (chr_sym w') chr_orthogonal (fun k m => ((k + n - m) mod n)%nat));
      [|apply in_range; exact Hk].
    intros j k0 m _ _ Hm. apply in_seq in Hm. rewrite (chr_mod n w n_pos w_n). apply chr_quot. lia.
  Qed.
End DFT1.
