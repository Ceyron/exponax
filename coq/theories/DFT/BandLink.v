(* Link between the two index conventions: the FFT contract speaks about the full grid {0..n-1}^D of stored indices (DFT/DFTD.v), the
   product model of Nonlin/Conv.v sums over signed wavenumber vectors of the retained band.  For band-masked spectra the D-dimensional
   circular convolution over the full grid IS the band sum cconv2 (stored index b <-> signed wavenumber fftfreq b), hence - with the
   convolution theorem - rfftn(irfftn U * irfftn V), masked, is the model's prod2 U V.  Any D, any n = N, any cutoff with 2K < N. *)
From Coq Require Import ZArith List Lia Permutation.
From EXV Require Import Base.Scalar Base.FieldLemmas DFT.DFT1 Layout.Freq Layout.FreqProofs IC.Normalize DFT.DFTD Nonlin.Conv
  Nonlin.ConvProofs.
Import ListNotations.

Section Index.
  Variable n : nat.
  Hypothesis n_pos : (0 < n)%nat.
  Notation N := (Z.of_nat n).
  Variable Kc : Z.
  Hypothesis K_small : (2 * Kc < N)%Z.

  Definition sg (b : nat) : Z := fftfreq N (Z.of_nat b).
  Definition sgn (k : list nat) : idx := map sg k.
  Definition ung (x : Z) : nat := Z.to_nat (unfreq N x).

  Lemma ung_sg b : (b < n)%nat -> ung (sg b) = b.
  Proof. intros Hb. unfold ung, sg. rewrite unfreq_fftfreq by lia. apply Nat2Z.id. Qed.
  Lemma sg_ung x : (Z.abs x <= Kc)%Z -> (ung x < n)%nat /\ sg (ung x) = x.
  Proof.
    intros Hx. assert (R : (- (N / 2) <= x <= (N - 1) / 2)%Z) by (apply band_iff; lia).
    pose proof (unfreq_range N x R) as H. unfold ung, sg. rewrite Z2Nat.id by apply H. split; [lia | apply fftfreq_unfreq, R].
  Qed.

  Lemma sg_sub a b : (a < n)%nat -> sg ((b + n - a) mod n) = wrap1 N (sg b - sg a).
  Proof.
    intros Ha. unfold wrap1, sg. apply f_equal.
    rewrite Zminus_mod, !fftfreq_mod, <- Zminus_mod, Nat2Z.inj_mod, Nat2Z.inj_sub, Nat2Z.inj_add by lia.
    replace (Z.of_nat b + N - Z.of_nat a)%Z with ((Z.of_nat b - Z.of_nat a) + 1 * N)%Z by ring. apply Z.mod_add. lia.
  Qed.

  Lemma sgn_subD k m : length k = length m -> Forall (fun b => (b < n)%nat) m ->
    sgn (subD n k m) = wrapD N (subi (sgn k) (sgn m)).
  Proof.
    revert m. induction k as [|b k IH]; intros [|a m] Hl Hm; cbn in *; try discriminate; try reflexivity.
    inversion Hm; subst. f_equal; [apply sg_sub; assumption | apply IH; [lia | assumption]].
  Qed.

  Lemma in_band_sgn_iff k : in_band Kc (sgn k) = true <-> Forall (fun b => (Z.abs (sg b) <= Kc)%Z) k.
  Proof.
    unfold in_band, sgn. rewrite forallb_forall, Forall_forall. split.
    - intros H b Hb. specialize (H (sg b) (in_map sg k b Hb)). lia.
    - intros H x Hx. apply in_map_iff in Hx. destruct Hx as (b & <- & Hb). specialize (H b Hb). lia.
  Qed.

  Lemma ung_sgn k : Forall (fun b => (b < n)%nat) k -> map ung (sgn k) = k.
  Proof. induction 1 as [|b k Hb _ IH]; [reflexivity|]. cbn [sgn map]. fold (sgn k). rewrite (ung_sg b Hb), IH. reflexivity. Qed.
  Lemma sgn_ung x : in_band Kc x = true -> Forall (fun b => (b < n)%nat) (map ung x) /\ sgn (map ung x) = x.
  Proof.
    intros H. apply in_band_Forall in H. induction H as [|c x Hc _ [IH1 IH2]]; [split; [constructor | reflexivity]|].
    destruct (sg_ung c Hc) as [H1 H2]. cbn [sgn map]. fold (sgn (map ung x)). rewrite H2, IH2. split; [constructor; assumption | reflexivity].
  Qed.

  Lemma band_is_image D : Permutation (map sgn (filter (fun m => in_band Kc (sgn m)) (gridD D n))) (bandD D Kc).
  Proof.
    apply NoDup_Permutation.
    - apply NoDup_map_in; [|apply NoDup_filter, NoDup_gridD].
      intros x y Hx Hy E. apply filter_In in Hx, Hy. destruct Hx as [Hx _], Hy as [Hy _]. apply (in_gridD_iff n n_pos) in Hx, Hy.
      rewrite <- (ung_sgn x), <- (ung_sgn y), E by (apply Hx || apply Hy). reflexivity.
    - apply NoDup_bandD.
    - intros x. rewrite in_map_iff, (in_bandD_iff D Kc x). split.
      + intros (m & <- & Hm). apply filter_In in Hm. destruct Hm as [Hm Hb]. apply (in_gridD_iff n n_pos) in Hm.
        split; [unfold sgn; rewrite map_length; apply Hm | exact Hb].
      + intros [Hl Hb]. destruct (sgn_ung x Hb) as [Hg E]. exists (map ung x). split; [exact E|]. apply filter_In. split; [|rewrite E; exact Hb].
        apply (in_gridD_iff n n_pos). split; [rewrite map_length; exact Hl | exact Hg].
  Qed.
End Index.

Section Link.
  Variable F : FieldT.
  Add Ring Rbl : (fring F).
  Local Open Scope fld_scope.
  Variable n : nat.
  Hypothesis n_pos : (0 < n)%nat.
  Notation N := (Z.of_nat n).
  Variable Kc : Z.
  Hypothesis K_small : (2 * Kc < N)%Z.
  Notation K := (fops F).

  Definition on_grid (U : field F) : list nat -> K := fun m => msk F Kc U (sgn n m).

  Theorem cconvD_is_cconv2 D (U V : field F) k : length k = D ->
    cconvD n D (on_grid U) (on_grid V) k = cconv2 F D N Kc U V (sgn n k).
  Proof.
    intros Hl. unfold cconvD, cconv2, sumD, on_grid.
    rewrite (fsum_map_ext F _ _ (fun m => msk F Kc U (sgn n m) * msk F Kc V (wrapD N (subi (sgn n k) (sgn n m))))).
    2:{ intros m Hm. apply (in_gridD_iff n n_pos) in Hm. destruct Hm as [Hlm Hfm]. rewrite (sgn_subD n n_pos k m) by (try assumption; lia). reflexivity. }
    rewrite (fsum_filter F (fun m => in_band Kc (sgn n m))).
    2:{ intros m _ E. unfold msk at 1. rewrite E. ring. }
    rewrite <- (fsum_perm F (fun x => msk F Kc U x * msk F Kc V (wrapD N (subi (sgn n k) x))) _ _ (band_is_image n n_pos Kc K_small D)).
    rewrite map_map. reflexivity.
  Qed.

  Variables w w' : K.
  Hypothesis w_n : fpow w n = 1.
  Hypothesis w_prim : forall m, (0 < m < n)%nat -> fpow w m <> 1.
  Hypothesis w_inv : w * w' = 1.

  Theorem fft_product_is_prod2 D (U V : field F) k : in_grid n D k ->
    let u := idftI n D w' (on_grid U) in
    let v := idftI n D w' (on_grid V) in
    (if in_band Kc (sgn n k) then dftD n D w (fun j => u j * v j) k else 0) = prod2 F D N Kc U V (sgn n k).
  Proof.
    intros Hk u v. unfold prod2, msk at 1. destruct (in_band Kc (sgn n k)); [|reflexivity].
    rewrite (dftD_convolution F n w w' n_pos w_n w_prim w_inv D u v k Hk).
    destruct Hk as [Hl _].
    rewrite (cconvD_ext_grid F n n_pos D _ (on_grid U) _ (on_grid V) k Hl).
    - rewrite (cconvD_is_cconv2 D U V k Hl). unfold nfac, npts. rewrite !fdiv_def. ring.
    - intros m Hm. apply (dftD_idftI F n w w' n_pos w_n w_prim w_inv). exact Hm.
    - intros m Hm. apply (dftD_idftI F n w w' n_pos w_n w_prim w_inv). exact Hm.
  Qed.
End Link.
